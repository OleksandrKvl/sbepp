(* CheckedAccessProofs.v — C10 about the explicit size checks of the library
   (CheckedAccess.v) for ALL buffers, tables and paths.

   (a) no silent out-of-bounds: every byte range an operation touches -- also
       the ranges touched before an assertion fires -- lies inside the buffer;
       (a') without any hypothesis, nothing at or beyond the end is touched;
   (c) agreement: a returned value is the value of the unchecked Msg.v function
       (whose reads are bounds-tested);
   (b) no spurious report: (b1) every report of a size check names an extent
       that leaves the buffer; (b2) when the message lies inside the buffer and
       the unchecked function returns a value, no check fires and the same
       value is returned; (b0) the criterion "every byte READ lies inside" is
       refuted, because whole headers and entries are checked. *)
From Coq Require Import ZArith List Bool Lia.
From Sbepp Require Import CInt CIntFacts Bytes BytesFacts Msg MsgSpec MsgProofs Cursor SizeCheck
  CursorProofs ScriptSpec CheckedProofs CheckedAccess.
Import ListNotations.
Local Open Scope Z_scope.

(* the operations the C10 check exercises *)
Inductive op :=
| OField (path : list step) (k : nat)
| OArrayElem (path : list step) (k : nat) (i : Z)
| OArray (path : list step) (k : nat)
| OCompMember (path : list step) (k : nat) (moff msize : Z)
| OGroupInfo (path : list step) (k : nat)
| OGroupSize (path : list step) (k : nat)
| OEntrySize (path : list step)
| OMsgSize
| ODataInfo (path : list step) (k : nat)
| OData (path : list step) (k : nat).

(* result values, made comparable across operations *)
Inductive oval :=
| VBytes (bs : list Z)
| VNum (z : Z)
| VGroup (g : gview) (d : dim) (cbl : Z) (sub : level)
| VPair (p n : Z).

Definition amap {A B} (f : A -> B) (r : ares A) : ares B :=
  match r with AOk a t => AOk (f a) t | AAssert t w => AAssert t w end.

(* the checked operation ... *)
Definition run_checked (be : bool) (b : list Z) (m : message) (base : Z) (o : op) : ares oval :=
  match o with
  | OField p k => amap VBytes (cget_field be b m base p k)
  | OArrayElem p k i => amap VBytes (cget_array_elem be b m base p k i)
  | OArray p k => amap VBytes (cget_array be b m base p k)
  | OCompMember p k moff msize => amap VBytes (cget_comp_member be b m base p k moff msize)
  | OGroupInfo p k => amap (fun q => let '(g, d, cbl, sub) := q in VGroup g d cbl sub)
                           (cgroup_info be b m base p k)
  | OGroupSize p k => amap VNum (cgroup_size_bytes be b m base p k)
  | OEntrySize p => amap VNum (centry_size_bytes be b m base p)
  | OMsgSize => amap VNum (cmsg_size_bytes be b m base)
  | ODataInfo p k => amap (fun q => VPair (fst q) (snd q)) (cdata_info be b m base p k)
  | OData p k => amap VBytes (cget_data be b m base p k)
  end.

(* size_bytes of the view a path leads to: the message for the empty path *)
Definition entry_or_msg_size (be : bool) (b : list Z) (m : message) (base : Z) (path : list step)
  : option Z :=
  match path with
  | [] => msg_size_bytes be b m base
  | _ => entry_size_bytes be b m base path
  end.

(* ... and its unchecked counterpart: the Msg.v function (bounds-tested reads) *)
Definition run_unchecked (be : bool) (b : list Z) (m : message) (base : Z) (o : op) : option oval :=
  match o with
  | OField p k => option_map VBytes (get_field be b m base p k)
  | OArrayElem p k i => option_map VBytes (get_array_elem be b m base p k i)
  | OArray p k => option_map VBytes (get_field be b m base p k)
  | OCompMember p k moff msize => option_map VBytes (get_comp_member be b m base p k moff msize)
  | OGroupInfo p k => option_map (fun q => let '(g, d, cbl, sub) := q in VGroup g d cbl sub)
                                 (locate_group be b m base p k)
  | OGroupSize p k => option_map VNum (group_size_bytes be b m base p k)
  | OEntrySize p => option_map VNum (entry_or_msg_size be b m base p)
  | OMsgSize => option_map VNum (msg_size_bytes be b m base)
  | ODataInfo p k => option_map (fun q => VPair (fst q) (snd q)) (data_info be b m base p k)
  | OData p k => option_map VBytes (get_data be b m base p k)
  end.

(* the table is well formed: the header member read by the runtime lies inside
   the header, offsets and sizes are not negative, dimension members lie inside
   the dimension (ScriptSpec.wf_table_level) *)
Definition wf_msg (m : message) : Prop :=
  0 <= m_bl_off m /\ m_bl_off m + tbytes (m_bl_t m) <= m_hdr_size m /\
  wf_table_level (m_level m).

(* the buffer holds bytes, is addressable, the message view starts inside the
   address space *)
Definition env_ok (b : list Z) (base : Z) : Prop :=
  bytes_ok b = true /\ len b < 2 ^ 64 /\ 0 <= base.

Definition inside (b : list Z) (r : Z * Z) : Prop :=
  0 <= fst r /\ 0 <= snd r /\ fst r + snd r <= len b.

(* composite member arguments are those of a member inside the composite *)
Definition op_args_ok (o : op) : Prop :=
  match o with OCompMember _ _ moff msize => 0 <= moff /\ 0 <= msize | _ => True end.

(* (a) no silent out-of-bounds.  [trace_of] is the list of touched ranges of an
   AOk result and the list touched BEFORE the assertion of an AAssert result. *)
Definition stmt_checked_touches_inside : Prop :=
  forall be b m base o,
    wf_msg m -> env_ok b base -> op_args_ok o ->
    Forall (inside b) (trace_of (run_checked be b m base o)).

(* (a'), the literal property text, for ANY table, buffer, base and arguments:
   no byte at or beyond the end of the view is touched *)
Definition stmt_checked_nothing_beyond_end : Prop :=
  forall be b m base o,
    Forall (fun r => fst r + snd r <= len b) (trace_of (run_checked be b m base o)).

(* (c) agreement with Msg.v *)
Definition stmt_checked_agrees : Prop :=
  forall be b m base o v tr,
    wf_msg m -> env_ok b base -> op_args_ok o ->
    run_checked be b m base o = AOk v tr -> run_unchecked be b m base o = Some v.

(* (b1) a size-check report is justified: the extent [begin+off, begin+off+size)
   the failing SBEPP_SIZE_CHECK claims is not inside the buffer *)
Definition stmt_checked_report_justified : Prop :=
  forall be b m base o tr begin off size,
    wf_msg m -> env_ok b base -> op_args_ok o ->
    run_checked be b m base o = AAssert tr (WCheck begin off size) ->
    0 <= begin /\ 0 <= off /\ ~ (begin + off + size <= len b).

(* no 64-bit wrap-around in the size_t arithmetic of flat sizes (true when
   blockLength and numInGroup have fewer than 64 bits together, as uint16/uint16
   or uint16/uint32 do; false for two uint32 members) *)
Definition dim_nowrap (d : dim) : Prop :=
  d_size d + (2 ^ bits (d_n_t d)) * (2 ^ bits (d_bl_t d)) <= 2 ^ 64.

Fixpoint nowrap_level (l : level) {struct l} : Prop :=
  match l with Level _ gs _ => nowrap_groups gs end
with nowrap_groups (gs : groups) {struct gs} : Prop :=
  match gs with
  | GNil => True
  | GCons d _ l rest => dim_nowrap d /\ nowrap_level l /\ nowrap_groups rest
  end.

Definition msg_nowrap (m : message) : Prop :=
  m_hdr_size m + 2 ^ bits (m_bl_t m) <= 2 ^ 64 /\ nowrap_level (m_level m).

(* (b2) no spurious report: the message (as its own size_bytes describes it)
   lies inside the buffer and the documented preconditions hold (the unchecked
   function returns a value): the checked operation returns that value *)
Definition stmt_checked_no_spurious : Prop :=
  forall be b m base o s v,
    wf_msg m -> msg_nowrap m -> env_ok b base -> op_args_ok o ->
    msg_size_bytes be b m base = Some s -> base + s <= len b ->
    run_unchecked be b m base o = Some v ->
    exists tr, run_checked be b m base o = AOk v tr.

(* (b0) the naive criterion "every byte the unchecked function READS lies
   inside the buffer => no report" does NOT hold for the library: get_header
   checks the whole dimension / header composite although only blockLength and
   numInGroup are read, and a forward-iterator step checks the whole entry it
   steps over.  Refuted below by a 12-byte buffer that ends inside a 6-byte
   dimension, after its blockLength and numInGroup. *)
Definition stmt_read_extent_criterion : Prop :=
  forall be b m base o v,
    wf_msg m -> msg_nowrap m -> env_ok b base -> op_args_ok o ->
    run_unchecked be b m base o = Some v ->
    exists tr, run_checked be b m base o = AOk v tr.

Lemma flat_group_size_nonneg d n bl s : flat_group_size d n bl = Some s -> 0 <= s.
Proof.
  unfold flat_group_size. destruct (cmul _ _ _ _); [|discriminate]. cbn [obind].
  intros H. apply cbin_size_t_range in H. lia.
Qed.

Lemma flat_level_size_nonneg h bl s : flat_level_size h bl = Some s -> 0 <= s.
Proof. intros H. apply cbin_size_t_range in H. lia. Qed.

Lemma flat_size_exact d n bl s : wf_dim d -> dim_nowrap d ->
  0 <= n < 2 ^ bits (d_n_t d) -> 0 <= bl < 2 ^ bits (d_bl_t d) ->
  flat_group_size d n bl = Some s -> s = d_size d + n * bl.
Proof.
  intros Hd Hnw Hn Hbl Hs. pose proof (wf_dim_size_pos d Hd) as Hsz.
  pose proof (bits_le_64 (d_n_t d)). pose proof (bits_le_64 (d_bl_t d)).
  unfold dim_nowrap in Hnw.
  assert (n * bl < 2 ^ bits (d_n_t d) * 2 ^ bits (d_bl_t d)) by nia.
  rewrite flat_group_size_ok in Hs; [injection Hs as <-; reflexivity|apply Hd|lia..].
Qed.

Lemma wf_level_groups l : wf_table_level l -> wf_table_groups (level_groups l).
Proof. destruct l. intros (_ & _ & H). exact H. Qed.

Lemma field_bounds l k f : wf_table_level l -> nth_error (level_fields l) k = Some f ->
  0 <= f_off f /\ 0 <= f_size f.
Proof.
  destruct l as [fs gs ds]. intros (Hfs & _) Hf. apply nth_error_In in Hf.
  rewrite Forall_forall in Hfs. apply Hfs, Hf.
Qed.

Lemma wf_group_single d cbl l :
  wf_dim d -> 0 <= cbl -> wf_table_level l -> wf_table_groups (GCons d cbl l GNil).
Proof. cbn [wf_table_groups]. auto. Qed.

Lemma level_end_flat be b fuel l pos bl :
  is_flat l = true -> level_end be b fuel l pos bl = Some (pos + bl).
Proof. destruct l as [fs [|] [|]]; try discriminate. reflexivity. Qed.

Lemma groups_end_cons_single be b fuel d cbl l rest p :
  groups_end be b fuel (GCons d cbl l rest) p =
  obind (groups_end be b fuel (GCons d cbl l GNil) p) (fun p' => groups_end be b fuel rest p').
Proof.
  rewrite !groups_end_cons.
  destruct (rd be b (p + d_bl_off d) (d_bl_t d)) as [bl|]; cbn [obind]; [|reflexivity].
  destruct (rd be b (p + d_n_off d) (d_n_t d)) as [n|]; cbn [obind]; [|reflexivity].
  destruct (if is_flat l then _ else _) as [p'|]; reflexivity.
Qed.

(* [r] extends the trace [tr] by ranges that satisfy R; a returned value
   satisfies Q, the reason of an assertion satisfies W.  (a), (c), (b1), (b2) are
   one choice of R and W (Section Buffer), (a') is another. *)
Section Spec.
  Variables (R : Z * Z -> Prop) (W : why -> Prop).

  Definition tspec {A} (tr : trace) (r : ares A) (Q : A -> Prop) : Prop :=
    exists delta, trace_of r = tr ++ delta /\ Forall R delta /\
      match r with AOk x _ => Q x | AAssert _ w => W w end.

  Lemma spec_ret {A} tr (x : A) (Q : A -> Prop) : Q x -> tspec tr (AOk x tr) Q.
  Proof. intros H. exists []. cbn [trace_of]. rewrite app_nil_r. auto. Qed.

  Lemma spec_assert {A} tr w (Q : A -> Prop) : W w -> tspec tr (AAssert tr w) Q.
  Proof. intros H. exists []. cbn [trace_of]. rewrite app_nil_r. auto. Qed.

  Lemma spec_bind {A B} tr (r : ares A) (f : A -> trace -> ares B) (Q : A -> Prop)
    (Q' : B -> Prop) :
    tspec tr r Q -> (forall x tr1, Q x -> tspec tr1 (f x tr1) Q') -> tspec tr (abind r f) Q'.
  Proof.
    intros (d1 & Ht & Hd1 & Hq) Hf. destruct r as [x t|t w]; cbn [abind trace_of] in *.
    - subst t. destruct (Hf x (tr ++ d1) Hq) as (d2 & Ht2 & Hd2 & Hq2).
      exists (d1 ++ d2). rewrite app_assoc. split; [exact Ht2|]. split; [|exact Hq2].
      apply Forall_app. auto.
    - exists d1. auto.
  Qed.

  Lemma spec_amap {A B} (f : A -> B) tr (r : ares A) (Q : B -> Prop) :
    tspec tr r (fun x => Q (f x)) -> tspec tr (amap f r) Q.
  Proof. intros (d & H). exists d. destruct r; exact H. Qed.

  Lemma spec_pre tr c : (c = false -> W WPre) -> tspec tr (pre c tr) (fun _ => c = true).
  Proof. destruct c; intros H; [apply spec_ret|apply spec_assert]; auto. Qed.

  Lemma spec_alift {A} tr (o : option A) :
    (o = None -> W WPre) -> tspec tr (alift o tr) (fun x => o = Some x).
  Proof. destruct o; intros H; [apply spec_ret|apply spec_assert]; auto. Qed.

  Lemma spec_chk b tr begin off size (P : Prop) :
    (size_check begin (len b) off size = true -> P) ->
    (size_check begin (len b) off size = false -> W (WCheck begin off size)) ->
    tspec tr (chk b begin off size tr) (fun _ => P).
  Proof.
    intros H1 H2. unfold chk.
    destruct (size_check begin (len b) off size); [apply spec_ret|apply spec_assert]; auto.
  Qed.

  Lemma spec_touch b tr off n :
    R (off, n) -> tspec tr (touch_bytes b off n tr) (eq (slice b off n)).
  Proof. intros H. exists [(off, n)]. repeat split. auto. Qed.

  Lemma spec_touch_val be b tr off t : R (off, tbytes t) ->
    tspec tr (touch_val be b off t tr) (eq (dec be (slice b off (tbytes t)))).
  Proof. intros H. exists [(off, tbytes t)]. repeat split. auto. Qed.
End Spec.

Lemma spec_mono {A} R (W W' : why -> Prop) tr (r : ares A) (Q Q' : A -> Prop) :
  tspec R W tr r Q -> (forall w, W w -> W' w) -> (forall x, Q x -> Q' x) -> tspec R W' tr r Q'.
Proof.
  intros (d & Ht & Hd & Hq) HW HQ. exists d. split; [exact Ht|]. split; [exact Hd|].
  destruct r; auto.
Qed.

Lemma spec_weaken {A} R W tr (r : ares A) (Q Q' : A -> Prop) :
  tspec R W tr r Q -> (forall x, Q x -> Q' x) -> tspec R W tr r Q'.
Proof. intros H. apply (spec_mono R W W tr r Q Q' H). auto. Qed.

(* the n increments of [cwalk] and the size loop of [csum] are one iteration
   with two different steps *)
Fixpoint citer (stp : Z -> trace -> ares Z) (k : nat) (n ptr : Z) (tr : trace) : ares Z :=
  if n <=? 0 then AOk ptr tr else
  match k with
  | O => AAssert tr WPre
  | S k' => abind (stp ptr tr) (fun p' tr => citer stp k' (n - 1) p' tr)
  end.

Lemma cwalk_iter b lend : forall k n ptr tr,
  cwalk b lend k n ptr tr = citer (cincr b lend) k n ptr tr.
Proof.
  induction k as [|k IH]; intros n ptr tr; cbn [cwalk citer]; [reflexivity|].
  destruct (n <=? 0); [reflexivity|].
  destruct (cincr b lend ptr tr); cbn [abind]; [apply IH|reflexivity].
Qed.

Lemma csum_iter b lend : forall k n ptr tr,
  csum b lend k n ptr tr =
  citer (fun p tr => abind (lend p tr) (fun _ tr => cincr b lend p tr)) k n ptr tr.
Proof.
  induction k as [|k IH]; intros n ptr tr; cbn [csum citer]; [reflexivity|].
  destruct (n <=? 0); [reflexivity|].
  destruct (lend ptr tr); cbn [abind]; [|reflexivity].
  destruct (cincr b lend ptr _); cbn [abind]; [apply IH|reflexivity].
Qed.

(* (a'): no hypothesis on table, buffer, base or arguments *)

Section Upper.
  Variables (be : bool) (b : list Z).

  Definition below (r : Z * Z) : Prop := fst r + snd r <= len b.

  Notation ub := (tspec below (fun _ => True)).
  Notation ubt tr r := (ub tr r (fun _ => True)).

  Lemma ubt_of {A} tr (r : ares A) Q : ub tr r Q -> ubt tr r.
  Proof. intros H. apply (spec_weaken _ _ _ _ _ _ H). auto. Qed.

  Lemma ubt_ret {A} tr (x : A) : ubt tr (AOk x tr).
  Proof. apply spec_ret. exact I. Qed.

  Lemma ubt_assert {A} tr w : ubt tr (@AAssert A tr w).
  Proof. apply spec_assert. exact I. Qed.

  Lemma ubt_bind {A B} tr (r : ares A) (f : A -> trace -> ares B) :
    ubt tr r -> (forall x tr1, ubt tr1 (f x tr1)) -> ubt tr (abind r f).
  Proof. intros H Hf. apply (spec_bind _ _ _ _ _ _ _ H). auto. Qed.

  Lemma ubt_pre tr c : ubt tr (pre c tr).
  Proof. eapply ubt_of, spec_pre. auto. Qed.

  Lemma ubt_alift {A} tr (o : option A) : ubt tr (alift o tr).
  Proof. eapply ubt_of, spec_alift. auto. Qed.

  (* The four places where a range is touched: each time a passed check bounds
     the extent from above, wherever the view starts. *)
  Lemma ub_chk tr begin off size :
    ub tr (chk b begin off size tr) (fun _ => begin + off + size <= len b).
  Proof.
    apply spec_chk; [|auto]. intros H. apply size_check_inside in H. apply H.
  Qed.

  Lemma ubt_chk tr begin off size : ubt tr (chk b begin off size tr).
  Proof. eapply ubt_of, ub_chk. Qed.

  Lemma below_intro off n : off + n <= len b -> below (off, n).
  Proof. exact (fun H => H). Qed.

  Lemma ub_get_value tr begin off t :
    ub tr (cget_value be b begin off t tr) (eq (dec be (slice b (begin + off) (tbytes t)))).
  Proof.
    unfold cget_value. eapply spec_bind; [apply ub_chk|]. cbn beta. intros ? tr1 H.
    apply spec_touch_val, below_intro. lia.
  Qed.

  Lemma ubt_get_value tr begin off t : ubt tr (cget_value be b begin off t tr).
  Proof. eapply ubt_of, ub_get_value. Qed.

  Lemma ubt_get_bytes tr begin off n : ubt tr (cget_bytes b begin off n tr).
  Proof.
    unfold cget_bytes. eapply spec_bind; [apply ub_chk|]. cbn beta. intros ? tr1 H.
    eapply ubt_of, spec_touch, below_intro. lia.
  Qed.

  Lemma ubt_array_elem tr a n i : ubt tr (carray_elem b a n i tr).
  Proof.
    unfold carray_elem. eapply spec_bind; [apply spec_pre; auto|]. intros ? tr1 Hi.
    apply andb_true_iff in Hi. destruct Hi as [_ Hi]. apply Z.ltb_lt in Hi.
    eapply spec_bind; [apply ub_chk|]. cbn beta. intros ? tr2 Hc.
    eapply ubt_of, spec_touch, below_intro. lia.
  Qed.

  (* Everything else only passes the bound on: the remaining operations are
     chains of the above, walked through by [auto]. *)
  Hint Resolve ubt_ret ubt_assert ubt_bind ubt_pre ubt_alift ubt_chk ubt_get_value
    ubt_get_bytes ubt_array_elem : ubt.

  Lemma ubt_datas_end : forall ds tr p, ubt tr (cdatas_end be b ds p tr).
  Proof.
    induction ds; intros; cbn [cdatas_end]; unfold cdata_size_bytes, cdata_len; auto with ubt.
  Qed.

  Lemma ubt_iter stp : (forall q tr, ubt tr (stp q tr)) ->
    forall k n ptr tr, ubt tr (citer stp k n ptr tr).
  Proof. intros HS. induction k; intros; cbn [citer]; destruct (n <=? 0); auto with ubt. Qed.

  Lemma ubt_incr lend : (forall q tr, ubt tr (lend q tr)) ->
    forall ptr tr, ubt tr (cincr b lend ptr tr).
  Proof. intros HL ptr tr. unfold cincr, chk_begin. auto 6 with ubt. Qed.

  Lemma ubt_walk lend k n ptr tr : (forall q tr, ubt tr (lend q tr)) ->
    ubt tr (cwalk b lend k n ptr tr).
  Proof. intros HL. rewrite cwalk_iter. apply ubt_iter, ubt_incr, HL. Qed.

  Lemma ubt_sum lend k n ptr tr : (forall q tr, ubt tr (lend q tr)) ->
    ubt tr (csum b lend k n ptr tr).
  Proof.
    intros HL. rewrite csum_iter. apply ubt_iter. intros.
    apply ubt_bind; [apply HL|]. intros. apply ubt_incr, HL.
  Qed.

  Hint Resolve ubt_datas_end ubt_walk ubt_sum : ubt.

  Lemma ubt_ends :
    (forall l fuel tr pos bl, ubt tr (clevel_end be b fuel l pos bl tr)) /\
    (forall gs fuel tr p, ubt tr (cgroups_end be b fuel gs p tr)).
  Proof.
    apply level_groups_ind.
    - intros fs gs IH ds fuel tr pos bl. cbn [clevel_end]. auto with ubt.
    - intros. apply ubt_ret.
    - intros d cbl l IHl rest IHr fuel tr p. cbn [cgroups_end].
      unfold cflat_group_end, cnested_group_end, cgroup_bl, cgroup_num, cgroup_header.
      destruct (is_flat l); auto 9 with ubt.
  Qed.

  Definition ubt_level_end := proj1 ubt_ends.
  Definition ubt_groups_end := proj2 ubt_ends.
  Hint Resolve ubt_level_end ubt_groups_end : ubt.

  Lemma ubt_nth_group fuel : forall gs k tr p, ubt tr (cnth_group be b fuel gs k p tr).
  Proof. induction gs; intros [|k] tr p; cbn [cnth_group]; auto with ubt. Qed.

  Lemma ubt_nth_data : forall ds k tr p, ubt tr (cnth_data be b ds k p tr).
  Proof.
    induction ds; intros [|k] tr p; cbn [cnth_data]; unfold cdata_size_bytes, cdata_len;
      auto with ubt.
  Qed.

  Variable m : message.

  Lemma ubt_first_dyn tr v : ubt tr (cfirst_dyn be b m v tr).
  Proof. destruct v; cbn [cfirst_dyn]; unfold cmsg_bl, cmsg_header; auto 6 with ubt. Qed.

  Hint Resolve ubt_nth_group ubt_nth_data ubt_first_dyn : ubt.

  Lemma ubt_resolve fuel : forall path tr v l, ubt tr (cresolve be b m fuel path v l tr).
  Proof.
    induction path as [|[k i] rest IH]; intros tr v l; cbn [cresolve]; [apply ubt_ret|].
    apply ubt_bind; [|auto]. unfold cstep.
    apply ubt_bind; [auto with ubt|]. intros p0 tr1.
    apply ubt_bind; [auto with ubt|]. intros [[[g d] cbl] sub] tr2.
    unfold centry_at, cgroup_bl, cgroup_num, cgroup_header. destruct (is_flat sub); auto 9 with ubt.
  Qed.

  Lemma ubt_array_elems a n : forall cnt tr i acc, ubt tr (carray_elems b a n cnt i acc tr).
  Proof. induction cnt; intros; cbn [carray_elems]; auto with ubt. Qed.

  Hint Resolve ubt_resolve ubt_array_elems : ubt.

  Lemma ubt_view_size_bytes tr v l : ubt tr (cview_size_bytes be b m v l tr).
  Proof.
    unfold cview_size_bytes, cview_end, cmsg_bl, cmsg_header.
    destruct (is_flat l); [destruct v|]; auto 6 with ubt.
  Qed.

  Lemma ubt_get_data base path k : ubt [] (cget_data be b m base path k).
  Proof.
    unfold cget_data, cdata_at_path, cmsg_resolve, cdata_len, chk_begin.
    apply ubt_bind; [auto 6 with ubt|]. intros [p t] tr1.
    eapply spec_bind; [apply ub_get_value|]. intros n tr2 Hn.
    destruct (n =? 0); [apply ubt_ret|].
    apply ubt_bind; [apply ubt_chk|]. intros ? tr3.
    eapply spec_bind; [apply ub_get_value|]. intros n' tr4 Hn'.
    eapply spec_bind; [apply ub_chk|]. intros ? tr5 Hc.
    apply ubt_bind; [apply ubt_chk|]. intros ? tr6.
    eapply ubt_of, spec_touch, below_intro. subst n n'. lia.
  Qed.

  Lemma ubt_run base o : ubt [] (run_checked be b m base o).
  Proof.
    destruct o; cbn [run_checked]; apply spec_amap;
      [..|apply ubt_get_data];
      unfold cget_field, cget_array_elem, cget_array, cget_comp_member, cgroup_info,
        cgroup_size_bytes, centry_size_bytes, cmsg_size_bytes, cdata_info, cgroup_at_path,
        cdata_at_path, cmsg_resolve, cfield, cstatic_view, cdata_len;
      auto 7 using ubt_view_size_bytes with ubt.
    - apply ubt_bind; [auto 6 with ubt|]. intros [[[g d] cbl] sub] tr1.
      unfold cgroup_bl, cgroup_num, cgroup_header. auto 7 with ubt.
    - apply ubt_bind; [auto 6 with ubt|]. intros [[[g d] cbl] sub] tr1. auto with ubt.
  Qed.
End Upper.

Theorem checked_nothing_beyond_end : stmt_checked_nothing_beyond_end.
Proof.
  intros be b m base o. destruct (ubt_run be b m base o) as (d & Ht & Hd & _).
  rewrite Ht. exact Hd.
Qed.
Print Assumptions checked_nothing_beyond_end.

Section Buffer.
  Variables (be : bool) (b : list Z).
  Hypothesis Hok : bytes_ok b = true.
  Hypothesis Hlen : len b < 2 ^ 64.

  Lemma rd_some off t v : rd be b off t = Some v ->
    0 <= off /\ off + tbytes t <= len b /\ v = dec be (slice b off (tbytes t)) /\
    0 <= v < 2 ^ bits t.
  Proof.
    unfold rd. destruct (in_buf b off (tbytes t)) eqn:E; [|discriminate]. intros [= <-].
    pose proof (dec_bound be _ (bytes_ok_slice b off (tbytes t) Hok)) as H.
    rewrite (length_slice _ _ _ E) in H. fold (tw t) in H. rewrite pow_tw in H.
    apply in_buf_iff in E. tauto.
  Qed.

  Lemma rd_not_none off t : rd be b off t <> None -> 0 <= off /\ off + tbytes t <= len b.
  Proof.
    destruct (rd be b off t) eqn:E; [intros _; apply rd_some in E; lia|congruence].
  Qed.

  Lemma group_at_intro d g bl n :
    rd be b (g + d_bl_off d) (d_bl_t d) = Some bl -> rd be b (g + d_n_off d) (d_n_t d) = Some n ->
    group_at be b d g = Some {| gv_pos := g; gv_bl := bl; gv_n := n |}.
  Proof. intros H1 H2. unfold group_at. rewrite H1, H2. reflexivity. Qed.

  Lemma groups_end_cons_inv fuel d cbl l rest p e :
    groups_end be b fuel (GCons d cbl l rest) p = Some e ->
    exists bl n p1,
      rd be b (p + d_bl_off d) (d_bl_t d) = Some bl /\ rd be b (p + d_n_off d) (d_n_t d) = Some n /\
      (if is_flat l then obind (flat_group_size d n bl) (fun s => Some (p + s))
       else entries_walk be b fuel l bl fuel n (p + d_size d)) = Some p1 /\
      groups_end be b fuel rest p1 = Some e.
  Proof.
    rewrite groups_end_cons. intros H. apply obind_some in H. destruct H as (bl & Hbl & H).
    apply obind_some in H. destruct H as (n & Hn & H).
    apply obind_some in H. destruct H as (p1 & H1 & H2). eauto 7.
  Qed.

  Lemma datas_end_mono : forall ds p e, datas_end be b ds p = Some e -> p <= e.
  Proof.
    induction ds as [|t ds IH]; intros p e H; cbn [datas_end] in H; [injection H; lia|].
    apply obind_some in H. destruct H as (n & Hr & H). apply IH in H. apply rd_some in Hr.
    pose proof (tbytes_pos t). lia.
  Qed.

  Lemma walk_mono_from fuel l bl :
    (forall pos e, level_end be b fuel l pos bl = Some e -> pos <= e) ->
    forall k n p e, entries_walk be b fuel l bl k n p = Some e -> p <= e.
  Proof.
    intros HL. induction k as [|k IH]; intros n p e H; cbn [entries_walk] in H;
      (destruct (n <=? 0); [injection H; lia|]); [discriminate|].
    apply obind_some in H. destruct H as (p' & H1 & H2). apply HL in H1. apply IH in H2. lia.
  Qed.

  Lemma nav_mono :
    (forall l fuel pos bl e, wf_table_level l ->
       level_end be b fuel l pos bl = Some e -> pos + bl <= e) /\
    (forall gs fuel p e, wf_table_groups gs -> groups_end be b fuel gs p = Some e -> p <= e).
  Proof.
    apply level_groups_ind.
    - intros fs gs IH ds fuel pos bl e (_ & _ & Hg) H. rewrite level_end_eq in H.
      apply obind_some in H. destruct H as (p & H1 & H2).
      apply IH in H1; [|exact Hg]. apply datas_end_mono in H2. lia.
    - intros fuel p e _ [= <-]. lia.
    - intros d cbl l IHl rest IHr fuel p e (Hd & _ & Hwl & Hwr) H.
      apply groups_end_cons_inv in H. destruct H as (bl & n & p1 & Hbl & _ & H1 & H2).
      apply IHr in H2; [|exact Hwr]. apply rd_some in Hbl. pose proof (wf_dim_size_pos d Hd).
      destruct (is_flat l).
      + apply obind_some in H1. destruct H1 as (s & Hs & [= <-]).
        apply flat_group_size_nonneg in Hs. lia.
      + apply walk_mono_from in H1; [lia|]. intros pos e' He'.
        apply IHl in He'; [lia|exact Hwl].
  Qed.

  Definition level_end_mono := proj1 nav_mono.
  Definition groups_end_mono := proj2 nav_mono.

  Lemma walk_mono fuel l bl k n p e : wf_table_level l -> 0 <= bl ->
    entries_walk be b fuel l bl k n p = Some e -> p <= e.
  Proof.
    intros Hl Hbl. apply walk_mono_from. intros pos e' H.
    apply level_end_mono in H; [lia|exact Hl].
  Qed.

  Lemma walk_prefix fuel l bl : wf_table_level l -> 0 <= bl ->
    forall k n i p e1 epos, 0 <= i < n ->
    entries_walk be b fuel l bl k n p = Some e1 ->
    entries_walk be b fuel l bl k i p = Some epos ->
    exists ei, level_end be b fuel l epos bl = Some ei /\ ei <= e1.
  Proof.
    intros Hl Hbl. induction k as [|k IH]; intros n i p e1 epos Hi Hn Hi';
      cbn [entries_walk] in *; (destruct (Z.leb_spec n 0); [lia|]); [discriminate|].
    apply obind_some in Hn. destruct Hn as (p' & H1 & H2).
    destruct (Z.leb_spec i 0).
    - injection Hi' as <-. exists p'. split; [exact H1|].
      apply (walk_mono _ _ _ _ _ _ _ Hl Hbl H2).
    - rewrite H1 in Hi'. cbn [obind] in Hi'.
      apply (IH (n - 1) (i - 1) p' e1 epos ltac:(lia) H2 Hi').
  Qed.

  Lemma nth_data_pos_ge : forall ds k p q t, nth_data_pos be b ds k p = Some (q, t) -> p <= q.
  Proof.
    induction ds as [|t0 ds IH]; intros [|k] p q t H; cbn [nth_data_pos] in H; try discriminate.
    - injection H as <- _. lia.
    - apply obind_some in H. destruct H as (n & Hr & H). apply IH in H. apply rd_some in Hr.
      pose proof (tbytes_pos t0). lia.
  Qed.

  Lemma entry_pos_ge fuel d l gv i epos : wf_table_level l -> 0 <= gv_bl gv ->
    entry_pos be b fuel d l gv i = Some epos -> gv_pos gv + d_size d <= epos.
  Proof.
    intros Hl Hbl H. apply entry_pos_some in H. destruct H as [Hi H].
    unfold entry_start in H. destruct (is_flat l).
    - injection H as <-. assert (0 <= i * gv_bl gv) by (apply Z.mul_nonneg_nonneg; lia). lia.
    - apply (walk_mono _ _ _ _ _ _ _ Hl Hbl H).
  Qed.

  Definition inb (r : Z * Z) : Prop := in_buf b (fst r) (snd r) = true.

  (* a size-check report names an extent that is not inside the buffer *)
  Definition why_ok (w : why) : Prop :=
    match w with
    | WCheck g o s => 0 <= g /\ 0 <= o /\ ~ (g + o + s <= len b)
    | WPre => True
    end.

  Definition ends_inside (u : option Z) : Prop := exists e, u = Some e /\ e <= len b.

  (* One statement per operation serves (a), (c), (b1) and (b2): the operation
     extends the trace by ranges inside the buffer; a returned value satisfies Q
     (it is the value of the unchecked function); a report is justified, and
     none is made when [good] holds.  [good] says that the unchecked function
     returns a value and that what it walks over ends inside the buffer. *)
  Definition refutes (good : Prop) (w : why) : Prop := why_ok w /\ ~ good.

  Notation exact_for good := (tspec inb (refutes good)).

  Lemma inb_intro off n : 0 <= off /\ 0 <= n /\ off + n <= len b -> inb (off, n).
  Proof. apply in_buf_iff. Qed.

  Lemma exact_of {A} (good' good : Prop) tr (r : ares A) (Q Q' : A -> Prop) :
    exact_for good' tr r Q -> (good -> good') -> (forall x, Q x -> Q' x) -> exact_for good tr r Q'.
  Proof.
    intros H Hg HQ. apply (spec_mono _ _ _ _ _ _ _ H); [|exact HQ].
    intros w [Hw Hn]. split; [exact Hw|]. intros G. apply Hn, Hg, G.
  Qed.

  Lemma exact_bind {A B} (good' good : Prop) tr (r : ares A) (f : A -> trace -> ares B)
    (Q : A -> Prop) (Q' : B -> Prop) :
    exact_for good' tr r Q -> (good -> good') ->
    (forall x tr1, Q x -> exact_for good tr1 (f x tr1) Q') -> exact_for good tr (abind r f) Q'.
  Proof.
    intros H Hg Hf. eapply spec_bind; [|exact Hf]. apply (exact_of good' good _ _ Q Q H Hg). auto.
  Qed.

  (* the second premise of [exact_bind] when the part is the first step of the
     composite unchecked function and [C] (the message lies inside) is shared *)
  Lemma obind_not_none {A B} (C : Prop) (o : option A) (f : A -> option B) :
    C /\ obind o f <> None -> C /\ o <> None.
  Proof. intros [HC H]. split; [exact HC|]. intros E. apply H. rewrite E. reflexivity. Qed.

  Lemma exact_assert_pre {A} (good : Prop) tr (Q : A -> Prop) :
    ~ good -> exact_for good tr (AAssert tr WPre) Q.
  Proof. intros H. apply spec_assert. split; [exact I|exact H]. Qed.

  Lemma exact_pre (good : Prop) tr c :
    (good -> c = true) -> exact_for good tr (pre c tr) (fun _ => c = true).
  Proof.
    intros H. apply spec_pre. intros E. split; [exact I|]. intros G. rewrite (H G) in E.
    discriminate E.
  Qed.

  Lemma exact_alift {A} (good : Prop) tr (o : option A) :
    (good -> o <> None) -> exact_for good tr (alift o tr) (fun x => o = Some x).
  Proof. intros H. apply spec_alift. intros E. split; [exact I|]. intros G. exact (H G E). Qed.

  Lemma exact_chk (good : Prop) tr begin off size : 0 <= begin /\ 0 <= off /\ 0 <= size ->
    (good -> begin + off + size <= len b) ->
    exact_for good tr (chk b begin off size tr) (fun _ => begin + off + size <= len b).
  Proof.
    intros (Hb & Ho & Hs) Hg. apply spec_chk; intros E.
    - apply size_check_inside in E; lia.
    - assert (Hn : ~ begin + off + size <= len b).
      { intros Hle. rewrite size_check_complete in E; [discriminate|lia..]. }
      split; [cbn; auto|]. intros G. apply Hn, Hg, G.
  Qed.

  Lemma exact_get_value tr begin off t : 0 <= begin -> 0 <= off ->
    exact_for (rd be b (begin + off) t <> None) tr (cget_value be b begin off t tr)
      (fun x => rd be b (begin + off) t = Some x).
  Proof.
    intros Hb Ho. pose proof (tbytes_pos t). unfold cget_value.
    eapply spec_bind; [apply exact_chk; [lia|]|].
    - intros G. apply rd_not_none in G. lia.
    - cbn beta. intros ? tr1 H1.
      eapply spec_weaken; [apply spec_touch_val, inb_intro; lia|]. intros y <-.
      apply rd_in; lia.
  Qed.

  Lemma exact_get_bytes tr begin off n : 0 <= begin -> 0 <= off -> 0 <= n ->
    exact_for (rd_bytes b (begin + off) n <> None) tr (cget_bytes b begin off n tr)
      (fun x => rd_bytes b (begin + off) n = Some x).
  Proof.
    intros Hb Ho Hn. unfold cget_bytes.
    eapply spec_bind; [apply exact_chk; [auto|]|].
    - intros G. apply rd_bytes_not_none in G. lia.
    - cbn beta. intros ? tr1 H1.
      eapply spec_weaken; [apply spec_touch, inb_intro; lia|]. intros y <-.
      apply rd_bytes_in; lia.
  Qed.

  Lemma exact_group_header tr d g : wf_dim d -> 0 <= g ->
    exact_for (g + d_size d <= len b) tr (cgroup_header b d g tr)
      (fun _ => g + d_size d <= len b).
  Proof.
    intros Hd Hg. pose proof (wf_dim_size_pos d Hd).
    eapply spec_weaken; [apply exact_chk; lia|]. cbn beta. lia.
  Qed.

  (* numInGroup and blockLength are members (off, t) of the dimension *)
  Lemma exact_group_member tr d g off t : wf_dim d -> 0 <= g -> 0 <= off ->
    exact_for (g + d_size d <= len b /\ rd be b (g + off) t <> None) tr
      (abind (cgroup_header b d g tr) (fun _ tr => cget_value be b g off t tr))
      (fun x => rd be b (g + off) t = Some x).
  Proof.
    intros Hd Hg Ho. eapply exact_bind; [apply exact_group_header; assumption|intros [G _]; exact G|].
    intros ? tr1 _. eapply exact_of; [apply exact_get_value; assumption|intros [_ G]; exact G|auto].
  Qed.

  Lemma exact_group_num tr d g : wf_dim d -> 0 <= g ->
    exact_for (g + d_size d <= len b /\ rd be b (g + d_n_off d) (d_n_t d) <> None) tr
      (cgroup_num be b d g tr) (fun n => rd be b (g + d_n_off d) (d_n_t d) = Some n).
  Proof. intros Hd Hg. apply exact_group_member; [exact Hd|exact Hg|apply Hd]. Qed.

  Lemma exact_group_bl tr d g : wf_dim d -> 0 <= g ->
    exact_for (g + d_size d <= len b /\ rd be b (g + d_bl_off d) (d_bl_t d) <> None) tr
      (cgroup_bl be b d g tr) (fun bl => rd be b (g + d_bl_off d) (d_bl_t d) = Some bl).
  Proof. intros Hd Hg. apply exact_group_member; [exact Hd|exact Hg|apply Hd]. Qed.

  Lemma exact_data_len tr t p : 0 <= p ->
    exact_for (rd be b p t <> None) tr (cdata_len be b t p tr) (fun n => rd be b p t = Some n).
  Proof.
    intros Hp. eapply exact_of; [apply exact_get_value; lia|..]; rewrite Z.add_0_r; auto.
  Qed.

  Lemma exact_data_size_bytes tr t p : 0 <= p ->
    exact_for (rd be b p t <> None) tr (cdata_size_bytes be b t p tr)
      (fun s => exists n, rd be b p t = Some n /\ s = tbytes t + n).
  Proof.
    intros Hp. eapply spec_bind; [apply exact_data_len, Hp|]. intros n tr1 H1.
    apply spec_ret. exists n. split; [exact H1|reflexivity].
  Qed.

  Lemma exact_datas_end : forall ds tr p, 0 <= p ->
    exact_for (datas_end be b ds p <> None) tr (cdatas_end be b ds p tr)
      (fun e => datas_end be b ds p = Some e).
  Proof.
    induction ds as [|t ds IH]; intros tr p Hp; cbn [cdatas_end datas_end];
      [apply spec_ret; reflexivity|].
    eapply exact_bind; [apply exact_data_size_bytes, Hp| |].
    - intros G E. rewrite E in G. apply G. reflexivity.
    - intros s tr1 (n & Hr & ->). rewrite Hr. cbn [obind]. rewrite Z.add_assoc. apply IH.
      apply rd_some in Hr. pose proof (tbytes_pos t). lia.
  Qed.

  (* C: the part of the caller's [good] that does not depend on the position *)
  Section Iter.
    Variables (fuel : nat) (l : level) (bl : Z) (lend : Z -> trace -> ares Z) (C : Prop).
    Hypothesis Hl : wf_table_level l.
    Hypothesis Hbl : 0 <= bl.
    Hypothesis HL : forall q tr, 0 <= q ->
      exact_for (C /\ ends_inside (level_end be b fuel l q bl)) tr (lend q tr)
        (fun e => level_end be b fuel l q bl = Some e).

    Lemma exact_incr tr ptr : 0 <= ptr ->
      exact_for (C /\ ends_inside (level_end be b fuel l ptr bl)) tr (cincr b lend ptr tr)
        (fun e => level_end be b fuel l ptr bl = Some e).
    Proof.
      intros Hp. unfold cincr, chk_begin.
      eapply spec_bind; [apply exact_chk; [lia|]|].
      { intros (_ & e & He & Hle). apply level_end_mono in He; [lia|exact Hl]. }
      intros ? tr1 _.
      eapply spec_bind; [apply HL, Hp|]. intros e tr2 He.
      pose proof (level_end_mono _ _ _ _ _ Hl He).
      eapply spec_bind; [apply exact_chk; [lia|]|].
      { intros (_ & e' & He' & Hle). rewrite He in He'. injection He' as <-. lia. }
      intros ? tr3 _. apply HL, Hp.
    Qed.

    Lemma exact_iter stp :
      (forall q tr, 0 <= q ->
         exact_for (C /\ ends_inside (level_end be b fuel l q bl)) tr (stp q tr)
           (fun e => level_end be b fuel l q bl = Some e)) ->
      forall k tr n ptr, 0 <= ptr ->
      exact_for (C /\ ends_inside (entries_walk be b fuel l bl k n ptr)) tr (citer stp k n ptr tr)
        (fun e => entries_walk be b fuel l bl k n ptr = Some e).
    Proof.
      intros HS. induction k as [|k IH]; intros tr n ptr Hp; cbn [citer entries_walk];
        (destruct (n <=? 0); [apply spec_ret; reflexivity|]).
      - apply exact_assert_pre. intros (_ & e & E & _). discriminate E.
      - eapply exact_bind; [apply HS, Hp| |].
        + intros (HC & e & H & Hle). split; [exact HC|].
          apply obind_some in H. destruct H as (p' & H1 & H2). exists p'. split; [exact H1|].
          apply walk_mono in H2; [lia|exact Hl|exact Hbl].
        + intros p' tr1 H1. rewrite H1. cbn [obind].
          apply IH. apply level_end_mono in H1; [lia|exact Hl].
    Qed.

    Lemma exact_walk k tr n ptr : 0 <= ptr ->
      exact_for (C /\ ends_inside (entries_walk be b fuel l bl k n ptr)) tr
        (cwalk b lend k n ptr tr) (fun e => entries_walk be b fuel l bl k n ptr = Some e).
    Proof. rewrite cwalk_iter. apply exact_iter. intros. apply exact_incr. assumption. Qed.

    Lemma exact_sum k tr n ptr : 0 <= ptr ->
      exact_for (C /\ ends_inside (entries_walk be b fuel l bl k n ptr)) tr
        (csum b lend k n ptr tr) (fun e => entries_walk be b fuel l bl k n ptr = Some e).
    Proof.
      rewrite csum_iter. apply exact_iter. intros q tr1 Hq.
      eapply spec_bind; [apply HL, Hq|]. intros. apply exact_incr, Hq.
    Qed.
  End Iter.

  Definition level_inside fuel (l : level) (pos bl : Z) : Prop :=
    nowrap_level l /\ ends_inside (level_end be b fuel l pos bl).
  Definition groups_inside fuel (gs : groups) (p : Z) : Prop :=
    nowrap_groups gs /\ ends_inside (groups_end be b fuel gs p).

  Lemma nowrap_level_groups l : nowrap_level l -> nowrap_groups (level_groups l).
  Proof. destruct l. auto. Qed.

  Lemma level_groups_inside fuel l pos bl : level_inside fuel l pos bl ->
    groups_inside fuel (level_groups l) (pos + bl) /\
    exists ge, groups_end be b fuel (level_groups l) (pos + bl) = Some ge /\
               datas_end be b (level_datas l) ge <> None.
  Proof.
    intros (Hnw & e & H & Hle). rewrite level_end_parts in H.
    apply obind_some in H. destruct H as (ge & H1 & H2). split.
    - split; [apply nowrap_level_groups, Hnw|]. exists ge. split; [exact H1|].
      apply datas_end_mono in H2. lia.
    - exists ge. split; [exact H1|]. rewrite H2. discriminate.
  Qed.

  Lemma groups_inside_cons fuel d cbl l rest p : wf_table_groups (GCons d cbl l rest) ->
    groups_inside fuel (GCons d cbl l rest) p ->
    groups_inside fuel (GCons d cbl l GNil) p /\
    forall p1, groups_end be b fuel (GCons d cbl l GNil) p = Some p1 -> groups_inside fuel rest p1.
  Proof.
    intros (_ & _ & _ & Hwr) ((Hnd & Hnl & Hnr) & e & H & Hle).
    rewrite groups_end_cons_single in H. apply obind_some in H. destruct H as (p1 & H1 & H2).
    pose proof (groups_end_mono _ _ _ _ Hwr H2). split.
    - split; [cbn [nowrap_groups]; auto|]. exists p1. split; [exact H1|lia].
    - intros p1' H1'. rewrite H1 in H1'. injection H1' as <-. split; [exact Hnr|]. exists e. auto.
  Qed.

  Lemma group_inside_inv fuel d cbl l p : wf_dim d -> wf_table_level l ->
    groups_inside fuel (GCons d cbl l GNil) p ->
    p + d_size d <= len b /\
    rd be b (p + d_bl_off d) (d_bl_t d) <> None /\ rd be b (p + d_n_off d) (d_n_t d) <> None /\
    forall bl n, rd be b (p + d_bl_off d) (d_bl_t d) = Some bl ->
      rd be b (p + d_n_off d) (d_n_t d) = Some n ->
      ends_inside (if is_flat l then obind (flat_group_size d n bl) (fun s => Some (p + s))
                   else entries_walk be b fuel l bl fuel n (p + d_size d)).
  Proof.
    intros Hd Hwl ((Hnd & _) & e & H & Hle). apply groups_end_cons_inv in H.
    destruct H as (bl & n & p1 & Hbl & Hn & H1 & [= <-]).
    (* without size_t wrap-around the dimension lies before the end of the entries *)
    assert (Hp1 : p + d_size d <= p1).
    { pose proof (rd_some _ _ _ Hbl) as (_ & _ & _ & Hbl0). pose proof (rd_some _ _ _ Hn) as (_ & _ & _ & Hn0).
      destruct (is_flat l).
      - apply obind_some in H1. destruct H1 as (s & Hs & [= <-]).
        apply flat_size_exact in Hs; [|exact Hd|exact Hnd|exact Hn0|exact Hbl0].
        assert (0 <= n * bl) by (apply Z.mul_nonneg_nonneg; [apply Hn0|apply Hbl0]). lia.
      - apply walk_mono in H1; [exact H1|exact Hwl|apply Hbl0]. }
    rewrite Hbl, Hn. split; [exact (Z.le_trans _ _ _ Hp1 Hle)|]. split; [discriminate|]. split; [discriminate|].
    intros bl' n' [= <-] [= <-]. exists p1. auto.
  Qed.

  Lemma exact_ends :
    (forall l fuel tr pos bl, wf_table_level l -> 0 <= pos -> 0 <= bl ->
       exact_for (level_inside fuel l pos bl) tr (clevel_end be b fuel l pos bl tr)
         (fun e => level_end be b fuel l pos bl = Some e)) /\
    (forall gs fuel tr p, wf_table_groups gs -> 0 <= p ->
       exact_for (groups_inside fuel gs p) tr (cgroups_end be b fuel gs p tr)
         (fun e => groups_end be b fuel gs p = Some e)).
  Proof.
    apply level_groups_ind.
    - intros fs gs IH ds fuel tr pos bl (_ & _ & Hg) Hp Hbl. unfold level_inside.
      cbn [clevel_end]. rewrite level_end_eq. pose proof (Z.add_nonneg_nonneg _ _ Hp Hbl) as Hpb.
      eapply exact_bind;
        [apply IH; [exact Hg|exact Hpb]|apply (level_groups_inside fuel (Level fs gs ds) pos bl)|].
      intros p tr1 H1. rewrite H1. cbn [obind].
      eapply exact_of; [apply exact_datas_end| |auto].
      + exact (Z.le_trans _ _ _ Hpb (groups_end_mono _ _ _ _ Hg H1)).
      + intros (_ & e & E & _). rewrite E. discriminate.
    - intros fuel tr p _ _. apply spec_ret. reflexivity.
    - intros d cbl l IHl rest IHr fuel tr p Hwf Hp. pose proof Hwf as (Hd & Hc & Hwl & Hwr).
      pose proof (wf_group_single d cbl l Hd Hc Hwl) as Hw1. pose proof (wf_dim_size_pos d Hd) as Hds.
      cbn [cgroups_end].
      apply exact_bind with (good' := groups_inside fuel (GCons d cbl l GNil) p)
                            (Q := fun p1 => groups_end be b fuel (GCons d cbl l GNil) p = Some p1).
      2: { intros G. apply (groups_inside_cons fuel d cbl l rest p Hwf G). }
      2: { intros p1 tr1 H1. eapply exact_of; [apply IHr; [exact Hwr|]| |].
           - exact (Z.le_trans _ _ _ Hp (groups_end_mono _ _ _ _ Hw1 H1)).
           - intros G. apply (groups_inside_cons fuel d cbl l rest p Hwf G), H1.
           - intros e He. rewrite groups_end_cons_single, H1. exact He. }
      pose proof (group_inside_inv fuel d cbl l p Hd Hwl) as HG.
      destruct (is_flat l) eqn:Hfl.
      + unfold cflat_group_end.
        eapply exact_bind; [apply exact_group_header; assumption|intros G; apply (HG G)|].
        intros ? tr1 _.
        eapply exact_bind;
          [apply exact_get_value; [exact Hp|apply Hd]|intros G; apply (HG G)|].
        intros n tr2 Hn.
        eapply exact_bind;
          [apply exact_get_value; [exact Hp|apply Hd]|intros G; apply (HG G)|].
        intros bl tr3 Hbl.
        eapply spec_bind; [apply exact_alift|].
        { intros G. destruct (HG G) as (_ & _ & _ & Hin).
          destruct (Hin bl n Hbl Hn) as (p1 & H1 & _).
          intros E. rewrite E in H1. discriminate H1. }
        intros s tr4 Hs. apply spec_ret.
        rewrite groups_end_cons, Hfl, Hbl, Hn. cbn [obind]. rewrite Hs. reflexivity.
      + unfold cnested_group_end.
        eapply exact_bind; [apply exact_group_header; assumption|intros G; apply (HG G)|].
        intros ? tr1 _.
        eapply exact_bind; [apply exact_group_bl; assumption|intros G; split; apply (HG G)|].
        intros bl tr2 Hbl.
        eapply exact_bind; [apply exact_group_num; assumption|intros G; split; apply (HG G)|].
        intros n tr3 Hn.
        eapply exact_bind; [apply exact_group_bl; assumption|intros G; split; apply (HG G)|].
        intros ? tr4 _.
        pose proof (rd_some _ _ _ Hbl) as (_ & _ & _ & Hbl0 & _).
        eapply exact_of.
        * apply (exact_sum fuel l bl _ (nowrap_level l)); [exact Hwl|exact Hbl0| |clear - Hp Hds; lia].
          intros q t Hq. apply IHl; [exact Hwl|exact Hq|exact Hbl0].
        * intros G. split; [apply G|apply (HG G); assumption].
        * intros p1 H1. rewrite groups_end_cons, Hfl, Hbl, Hn. cbn [obind]. rewrite H1. reflexivity.
  Qed.

  Definition exact_level_end := proj1 exact_ends.
  Definition exact_groups_end := proj2 exact_ends.

  Let F := default_fuel b.

  Lemma exact_nth_group : forall gs k tr p, wf_table_groups gs -> 0 <= p ->
    exact_for (groups_inside F gs p /\ nth_group_pos be b F gs k p <> None) tr
      (cnth_group be b F gs k p tr) (fun r => nth_group_pos be b F gs k p = Some r).
  Proof.
    induction gs as [|d cbl l rest IH]; intros [|k] tr p Hwf Hp; cbn [cnth_group nth_group_pos];
      try (apply exact_assert_pre; intros (_ & G); apply G; reflexivity);
      [apply spec_ret; reflexivity|].
    pose proof Hwf as (Hd & Hc & Hl & Hr).
    assert (Hw1 := wf_group_single d cbl l Hd Hc Hl).
    eapply exact_bind; [apply exact_groups_end; [exact Hw1|exact Hp]| |].
    - intros (G & _). apply (groups_inside_cons F d cbl l rest p Hwf G).
    - intros p' tr1 H1. rewrite H1. cbn [obind].
      eapply exact_of; [apply IH; [exact Hr|]| |auto].
      + exact (Z.le_trans _ _ _ Hp (groups_end_mono _ _ _ _ Hw1 H1)).
      + intros (G & Hn). split; [apply (groups_inside_cons F d cbl l rest p Hwf G), H1|exact Hn].
  Qed.

  Lemma nth_group_inside : forall gs k p g d cbl sub, wf_table_groups gs ->
    nth_group_pos be b F gs k p = Some (g, d, cbl, sub) ->
    p <= g /\ wf_dim d /\ 0 <= cbl /\ wf_table_level sub /\
    (groups_inside F gs p -> groups_inside F (GCons d cbl sub GNil) g).
  Proof.
    induction gs as [|d0 c0 l0 rest IH]; intros [|k] p g d cbl sub Hwf H;
      cbn [nth_group_pos] in H; try discriminate; pose proof Hwf as (Hd & Hc & Hl & Hr).
    - injection H as <- <- <- <-. refine (conj (Z.le_refl p) (conj Hd (conj Hc (conj Hl _)))).
      intros G. apply (groups_inside_cons F d0 c0 l0 rest p Hwf G).
    - apply obind_some in H. destruct H as (p1 & H1 & H2).
      pose proof (groups_end_mono _ _ _ _ (wf_group_single d0 c0 l0 Hd Hc Hl) H1) as Hp1.
      destruct (IH k p1 g d cbl sub Hr H2) as (Hg & Hd' & Hc' & Hs' & Hin).
      refine (conj (Z.le_trans _ _ _ Hp1 Hg) (conj Hd' (conj Hc' (conj Hs' _)))).
      intros G. apply Hin, (groups_inside_cons F d0 c0 l0 rest p Hwf G), H1.
  Qed.

  Lemma exact_nth_data : forall ds k tr p, 0 <= p ->
    exact_for (nth_data_pos be b ds k p <> None) tr (cnth_data be b ds k p tr)
      (fun r => nth_data_pos be b ds k p = Some r).
  Proof.
    induction ds as [|t ds IH]; intros [|k] tr p Hp; cbn [cnth_data nth_data_pos];
      try (apply exact_assert_pre; intros G; apply G; reflexivity);
      [apply spec_ret; reflexivity|].
    eapply exact_bind; [apply exact_data_size_bytes, Hp| |].
    - intros G E. rewrite E in G. apply G. reflexivity.
    - intros s tr1 (n & Hr & ->). rewrite Hr. cbn [obind]. rewrite Z.add_assoc. apply IH.
      apply rd_some in Hr. pose proof (tbytes_pos t). lia.
  Qed.

  Lemma entry_level_inside d cbl l g gv i epos : wf_dim d -> wf_table_level l ->
    groups_inside F (GCons d cbl l GNil) g ->
    group_at be b d g = Some gv -> entry_pos be b F d l gv i = Some epos ->
    level_inside F l epos (gv_bl gv).
  Proof.
    intros Hd Hws ((Hnd & Hns & _) & e1 & He1 & Hle) Hga Hep.
    destruct (group_at_inv _ _ _ _ _ Hga) as (Hbl & Hn & Hgp).
    apply entry_pos_some in Hep. destruct Hep as [Hi Hep]. rewrite Hgp in Hep.
    apply groups_end_cons_inv in He1. destruct He1 as (bl & n & p1 & Hbl' & Hn' & Hp1 & [= ->]).
    rewrite Hbl in Hbl'. rewrite Hn in Hn'. injection Hbl' as <-. injection Hn' as <-.
    apply rd_some in Hbl as (_ & _ & _ & Hbl). apply rd_some in Hn as (_ & _ & _ & Hn).
    unfold entry_start in Hep. destruct (is_flat l) eqn:Hfl.
    - apply obind_some in Hp1. destruct Hp1 as (s & Hs & [= <-]). injection Hep as <-.
      apply flat_size_exact in Hs; [|exact Hd|exact Hnd|exact Hn|exact Hbl].
      assert (Hm : (i + 1) * gv_bl gv <= gv_n gv * gv_bl gv)
        by (apply Z.mul_le_mono_nonneg_r; [apply Hbl|clear - Hi; lia]).
      split; [exact Hns|]. eexists. split; [apply level_end_flat, Hfl|clear - Hle Hm Hs; lia].
    - destruct (walk_prefix F l (gv_bl gv) Hws (proj1 Hbl) F _ i _ e1 epos Hi Hp1 Hep)
        as (ei & Hei & Hle').
      split; [exact Hns|]. exists ei. split; [exact Hei|clear - Hle Hle'; lia].
  Qed.

  Definition entry_good (d : dim) (cbl : Z) (l : level) (g i : Z) : Prop :=
    groups_inside F (GCons d cbl l GNil) g /\
    exists gv epos, group_at be b d g = Some gv /\ entry_pos be b F d l gv i = Some epos.

  Lemma exact_entry_at tr d cbl l g i n : wf_dim d -> wf_table_level l -> 0 <= g ->
    rd be b (g + d_n_off d) (d_n_t d) = Some n -> 0 <= i < n ->
    exact_for (entry_good d cbl l g i) tr (centry_at be b F d l g i tr)
      (fun e => exists gv, group_at be b d g = Some gv /\ gv_bl gv = snd e /\
                entry_pos be b F d l gv i = Some (fst e)).
  Proof.
    intros Hd Hl Hg Hn Hi. unfold centry_at. pose proof (wf_dim_size_pos d Hd) as Hds.
    assert (Hfin : forall bl p, rd be b (g + d_bl_off d) (d_bl_t d) = Some bl ->
              entry_start be b F d l bl g i = Some p ->
              exists gv, group_at be b d g = Some gv /\ gv_bl gv = bl /\
                         entry_pos be b F d l gv i = Some p).
    { intros bl p Hbl Hp. eexists. split; [exact (group_at_intro d g bl n Hbl Hn)|].
      split; [reflexivity|]. apply entry_pos_some. auto. }
    pose proof (group_inside_inv F d cbl l g Hd Hl) as Hrd.
    unfold entry_start in Hfin. destruct (is_flat l) eqn:Hfl.
    - eapply exact_bind;
        [apply exact_group_num; assumption|intros (Hin & _); split; apply (Hrd Hin)|].
      intros n' tr1 Hn'. rewrite Hn in Hn'. injection Hn' as <-.
      eapply spec_bind; [apply exact_pre; intros _; apply Z.ltb_lt, Hi|]. intros ? tr2 _.
      eapply exact_bind;
        [apply exact_group_bl; assumption|intros (Hin & _); split; apply (Hrd Hin)|].
      intros bl tr3 Hbl. apply spec_ret, Hfin; [exact Hbl|reflexivity].
    - eapply exact_bind;
        [apply exact_group_bl; assumption|intros (Hin & _); split; apply (Hrd Hin)|].
      intros bl tr1 Hbl. pose proof (rd_some _ _ _ Hbl) as (_ & _ & _ & Hbl0 & _).
      eapply exact_bind.
      + apply (exact_walk F l bl _ (nowrap_level l)); [exact Hl|exact Hbl0| |clear - Hg Hds; lia].
        intros q t Hq. apply exact_level_end; [exact Hl|exact Hq|exact Hbl0].
      + intros (Hin & gv & epos & Hga & Hep).
        destruct (entry_level_inside d cbl l g gv i epos Hd Hl Hin Hga Hep)
          as (Hns & ei & Hei & Hle).
        destruct (group_at_inv _ _ _ _ _ Hga) as (Hbl' & _ & Hgp).
        rewrite Hbl in Hbl'. injection Hbl' as ->.
        apply entry_pos_some in Hep. destruct Hep as [_ Hep].
        unfold entry_start in Hep. rewrite Hgp, Hfl in Hep.
        apply level_end_mono in Hei; [|exact Hl].
        split; [exact Hns|]. exists epos. split; [exact Hep|lia].
      + intros p tr2 Hp. apply spec_ret, Hfin; assumption.
  Qed.

  Variable m : message.
  Hypothesis Hm : wf_msg m.

  Lemma hdr_pos : 1 <= m_hdr_size m.
  Proof. destruct Hm as (H1 & H2 & _). pose proof (tbytes_pos (m_bl_t m)). lia. Qed.

  (* A view stands for the block at [view_block v] with wire blockLength [vbl v];
     a message view re-reads its blockLength on every use. *)
  Notation view_block v := (view_start v + view_hoff m v).
  Definition vbl (v : cview) : Z :=
    match v with
    | CVMsg base => dec be (slice b (base + m_bl_off m) (tbytes (m_bl_t m)))
    | CVEntry _ bl => bl
    end.
  Definition vhdr_ok (v : cview) : Prop :=
    match v with CVMsg base => base + m_hdr_size m <= len b | CVEntry _ _ => True end.
  Definition vnonneg (v : cview) : Prop := 0 <= view_start v /\ 0 <= vbl v.

  Lemma view_hoff_nonneg v : 0 <= view_hoff m v.
  Proof. pose proof hdr_pos. destruct v; cbn [view_hoff]; lia. Qed.

  (* [cmsg_resolve base []] checks nothing, [msg_resolve base []] reads the
     blockLength: any later access inside the buffer at or after the block
     shows that the header was inside *)
  Lemma vhdr_from_bound v x : 0 <= x -> view_block v + x <= len b -> vhdr_ok v.
  Proof. destruct v; cbn [vhdr_ok view_start view_hoff]; [lia|trivial]. Qed.

  Lemma msg_block_length_ok base : 0 <= base -> base + m_hdr_size m <= len b ->
    msg_block_length be b m base = Some (vbl (CVMsg base)).
  Proof. intros Hb Hh. destruct Hm as (H1 & H2 & _). apply rd_in; lia. Qed.

  Lemma exact_msg_bl tr base : 0 <= base ->
    exact_for (base + m_hdr_size m <= len b) tr (cmsg_bl be b m base tr)
      (fun bl => bl = vbl (CVMsg base) /\ base + m_hdr_size m <= len b).
  Proof.
    intros Hb. unfold cmsg_bl, cmsg_header. destruct Hm as (H1 & H2 & _). pose proof hdr_pos.
    eapply spec_bind; [apply exact_chk; lia|]. cbn beta. intros ? tr1 Hh.
    eapply exact_of; [apply exact_get_value; assumption| |].
    - intros _. rewrite rd_in by lia. discriminate.
    - intros y Hr. apply rd_some in Hr. split; [apply Hr|lia].
  Qed.

  Lemma exact_first_dyn tr v : vnonneg v ->
    exact_for (vhdr_ok v) tr (cfirst_dyn be b m v tr)
      (fun p0 => p0 = view_block v + vbl v /\ vhdr_ok v /\ 0 <= p0).
  Proof.
    intros [Hs Hb]. pose proof (view_hoff_nonneg v).
    destruct v as [base|pos bl]; cbn [cfirst_dyn]; [|apply spec_ret; cbn [view_start view_hoff vbl vhdr_ok] in *; lia].
    unfold cmsg_header. pose proof hdr_pos. cbn [view_start vhdr_ok] in *.
    eapply spec_bind; [apply exact_chk; lia|]. intros ? tr1 _.
    eapply spec_bind; [apply exact_msg_bl, Hs|]. intros bl tr2 [-> Hh].
    apply spec_ret. cbn [vhdr_ok view_start view_hoff] in *. lia.
  Qed.

  (* the step succeeds on the unchecked side, for some continuation of the path *)
  Definition step_good (v : cview) (l : level) (k : nat) (i : Z) : Prop :=
    vhdr_ok v /\ level_inside F l (view_block v) (vbl v) /\
    exists rest, resolve be b F (SGroup k i :: rest) l (view_block v) (vbl v) <> None.

  Lemma exact_step tr v l k i : vnonneg v -> wf_table_level l ->
    exact_for (step_good v l k i) tr (cstep be b m F v l k i tr)
      (fun r => vhdr_ok v /\ exists p' bl', fst r = CVEntry p' bl' /\ 0 <= p' /\ 0 <= bl' /\
                wf_table_level (snd r) /\
                (level_inside F l (view_block v) (vbl v) -> level_inside F (snd r) p' bl') /\
                forall rest, resolve be b F (SGroup k i :: rest) l (view_block v) (vbl v) =
                             resolve be b F rest (snd r) p' bl').
  Proof.
    intros Hv Hl. unfold cstep. pose proof (wf_level_groups l Hl) as Hgs.
    eapply exact_bind; [apply exact_first_dyn, Hv|intros G; apply G|].
    intros p0 tr1 (-> & Hh & Hp0).
    eapply exact_bind; [apply exact_nth_group; [exact Hgs|exact Hp0]| |].
    { intros (_ & Hin & rest & Hres). split; [apply level_groups_inside, Hin|].
      intros E. apply Hres. cbn [resolve]. rewrite E. reflexivity. }
    intros [[[g d] cbl] sub] tr2 Hnth.
    destruct (nth_group_inside _ _ _ _ _ _ _ Hgs Hnth) as (Hg & Hd & _ & Hsub & Hgin').
    assert (Hgin : level_inside F l (view_block v) (vbl v) ->
                   groups_inside F (GCons d cbl sub GNil) g).
    { intros Hin. apply Hgin', level_groups_inside, Hin. }
    assert (HG : step_good v l k i -> entry_good d cbl sub g i).
    { intros (_ & Hin & rest & Hres). split; [apply Hgin, Hin|].
      cbn [resolve] in Hres. rewrite Hnth in Hres. cbn [obind] in Hres.
      destruct (group_at be b d g) as [gv|]; [|exfalso; apply Hres; reflexivity].
      cbn [obind] in Hres. exists gv.
      destruct (entry_pos be b F d sub gv i) as [epos|]; [|exfalso; apply Hres; reflexivity].
      exists epos. split; reflexivity. }
    pose proof (Z.le_trans _ _ _ Hp0 Hg) as Hg0.
    eapply exact_bind; [apply exact_group_num; [exact Hd|exact Hg0]| |].
    { intros G. destruct (HG G) as (Hin & _).
      split; apply (group_inside_inv F d cbl sub g Hd Hsub Hin). }
    intros n tr3 Hn.
    eapply spec_bind; [apply exact_pre|].
    { intros G. destruct (HG G) as (_ & gv & epos & Hga & Hep).
      destruct (group_at_inv _ _ _ _ _ Hga) as (_ & Hn' & _). rewrite Hn in Hn'. injection Hn' as ->.
      apply entry_pos_some in Hep. destruct Hep as [Hi _].
      apply negb_true_iff, orb_false_iff. split; [apply Z.ltb_ge|apply Z.leb_gt]; apply Hi. }
    intros ? tr4 Hrange.
    apply negb_true_iff, orb_false_iff in Hrange. destruct Hrange as [Hi0 Hin].
    apply Z.ltb_ge in Hi0. apply Z.leb_gt in Hin.
    eapply exact_bind;
      [apply (exact_entry_at _ d cbl sub g i n); [exact Hd|exact Hsub|exact Hg0|exact Hn|split; assumption]|exact HG|].
    intros e tr5 (gv & Hga & Hbl & Hep). apply spec_ret. split; [exact Hh|].
    exists (fst e), (snd e). destruct (group_at_inv _ _ _ _ _ Hga) as (Hrbl & _ & Hgp).
    apply rd_some in Hrbl as (_ & _ & _ & Hrbl & _).
    pose proof (entry_pos_ge _ _ _ gv _ _ Hsub Hrbl Hep) as Hge.
    pose proof (wf_dim_size_pos d Hd) as Hds. cbn [fst snd]. rewrite <- Hbl.
    split; [reflexivity|]. split; [clear - Hge Hds Hgp Hg0; lia|]. split; [exact Hrbl|]. split; [exact Hsub|]. split.
    - intros Hli. apply (entry_level_inside d cbl sub g gv i (fst e) Hd Hsub (Hgin Hli) Hga Hep).
    - intros rest. rewrite resolve_cons, Hnth. cbn [obind]. rewrite Hga. cbn [obind]. rewrite Hep.
      reflexivity.
  Qed.

  Lemma exact_resolve : forall path tr v l, vnonneg v -> wf_table_level l ->
    exact_for (vhdr_ok v /\ level_inside F l (view_block v) (vbl v) /\
               resolve be b F path l (view_block v) (vbl v) <> None) tr
      (cresolve be b m F path v l tr)
      (fun r => vnonneg (fst r) /\ wf_table_level (snd r) /\
                (vhdr_ok (fst r) -> vhdr_ok v /\
                   resolve be b F path l (view_block v) (vbl v)
                   = Some (view_block (fst r), vbl (fst r), snd r)) /\
                (vhdr_ok v -> level_inside F l (view_block v) (vbl v) ->
                 vhdr_ok (fst r) /\ level_inside F (snd r) (view_block (fst r)) (vbl (fst r))) /\
                match path with [] => r = (v, l) | _ => exists p bl, fst r = CVEntry p bl end).
  Proof.
    induction path as [|[k i] rest IH]; intros tr v l Hv Hl; cbn [cresolve].
    - apply spec_ret. cbn [fst snd resolve]. auto 6.
    - eapply exact_bind; [apply exact_step; assumption| |].
      { intros (Hh & Hin & Hres). split; [exact Hh|]. split; [exact Hin|]. exists rest. exact Hres. }
      intros [v1 l1] tr1 (Hh & p' & bl' & Hv1 & Hp' & Hbl' & Hl1 & Hin1 & Hres).
      cbn [fst snd] in *. subst v1.
      eapply exact_of; [apply IH; [split; assumption|exact Hl1]|..];
        cbn [view_start view_hoff vbl vhdr_ok]; rewrite Z.add_0_r.
      + intros (_ & Hin & Hne). split; [exact I|]. split; [apply Hin1, Hin|].
        rewrite <- Hres. exact Hne.
      + intros r (H1 & H2 & H3 & H4 & H5).
        split; [exact H1|]. split; [exact H2|]. rewrite Hres.
        split; [intros H; split; [exact Hh|apply H3, H]|].
        split; [intros _ Hin; apply H4; [exact I|apply Hin1, Hin]|].
        destruct rest; [rewrite H5; cbn [fst]; eauto|exact H5].
  Qed.

  Definition msg_inside (base : Z) : Prop :=
    msg_nowrap m /\ exists s, msg_size_bytes be b m base = Some s /\ base + s <= len b.

  Lemma root_inside base : 0 <= base -> msg_inside base ->
    base + m_hdr_size m <= len b /\
    level_inside F (m_level m) (base + m_hdr_size m) (vbl (CVMsg base)).
  Proof.
    intros Hb ((Hnw1 & Hnw2) & s & Hs & Hsle). unfold msg_size_bytes in Hs.
    apply obind_some in Hs. destruct Hs as (bl & Hr & Hs).
    pose proof (rd_some _ _ _ Hr) as (_ & _ & _ & Hblb).
    pose proof hdr_pos. pose proof Hm as (_ & _ & Hwl).
    assert (He : exists e, level_end be b F (m_level m) (base + m_hdr_size m) bl = Some e /\
                           base + m_hdr_size m <= e <= len b).
    { unfold level_size_bytes in Hs. destruct (is_flat (m_level m)) eqn:Hfl.
      - rewrite flat_level_size_ok in Hs by lia. injection Hs as <-.
        rewrite level_end_flat by exact Hfl. eexists. split; [reflexivity|lia].
      - apply obind_some in Hs. destruct Hs as (e & He & [= <-]).
        pose proof (level_end_mono _ _ _ _ _ Hwl He). exists e. split; [exact He|lia]. }
    destruct He as (e & He & Hle).
    pose proof (msg_block_length_ok base Hb ltac:(lia)) as Hr2. rewrite Hr in Hr2.
    injection Hr2 as ->.
    split; [lia|]. split; [exact Hnw2|]. exists e. split; [exact He|lia].
  Qed.

  Lemma exact_msg_resolve tr base path : 0 <= base ->
    exact_for (msg_inside base /\ msg_resolve be b m base path <> None) tr
      (cmsg_resolve be b m base path tr)
      (fun r => vnonneg (fst r) /\ wf_table_level (snd r) /\
                (vhdr_ok (fst r) ->
                 msg_resolve be b m base path = Some (view_block (fst r), vbl (fst r), snd r)) /\
                (msg_inside base ->
                 vhdr_ok (fst r) /\ level_inside F (snd r) (view_block (fst r)) (vbl (fst r))) /\
                match path with
                | [] => r = (CVMsg base, m_level m)
                | _ => exists p bl, fst r = CVEntry p bl
                end).
  Proof.
    intros Hb. unfold cmsg_resolve.
    eapply exact_of; [apply exact_resolve; [split; [exact Hb|apply val_nonneg, Hok]|apply Hm]| |].
    - intros (Hin & Hne). destruct (root_inside base Hb Hin) as [Hh Hli].
      split; [exact Hh|]. split; [exact Hli|].
      unfold msg_resolve in Hne. rewrite (msg_block_length_ok base Hb Hh) in Hne. exact Hne.
    - intros r (H1 & H2 & H3 & H4 & H5). split; [exact H1|]. split; [exact H2|].
      split; [|split; [|exact H5]].
      + intros H. destruct (H3 H) as [Hh Hr]. unfold msg_resolve.
        rewrite (msg_block_length_ok base Hb Hh). exact Hr.
      + intros Hin. destruct (root_inside base Hb Hin) as [Hh Hli]. apply H4; assumption.
  Qed.

  (* field accessors resolve the path, look the field up and continue with K;
     the unchecked ones do the same with a bounds-tested read G *)
  Definition cat_field {A} base path k (K : cview * level -> fld -> trace -> ares A) : ares A :=
    abind (cmsg_resolve be b m base path []) (fun r tr => abind (cfield (snd r) k tr) (K r)).

  Definition at_field {A} base path k (G : Z -> fld -> option A) : option A :=
    obind (msg_resolve be b m base path) (fun r => let '(pos, _, l) := r in
      match nth_error (level_fields l) k with Some f => G pos f | None => None end).

  Lemma get_array_elem_eq base path k i :
    get_array_elem be b m base path k i =
    at_field base path k (fun pos f => obind (rd_bytes b (pos + f_off f) (f_size f)) (fun bs =>
      if (0 <=? i) && (i <? len bs) then Some (slice bs i 1) else None)).
  Proof.
    unfold get_array_elem, get_field, at_field.
    destruct (msg_resolve be b m base path) as [[[pos bl] l]|]; [|reflexivity].
    cbn [obind]. destruct (nth_error (level_fields l) k); reflexivity.
  Qed.

  Lemma exact_at_field {A} base path k K (G : Z -> fld -> option A) : 0 <= base ->
    (forall v l f tr, vnonneg v -> 0 <= f_off f -> 0 <= f_size f ->
       exact_for (vhdr_ok v /\ G (view_block v) f <> None) tr (K (v, l) f tr)
         (fun x => G (view_block v) f = Some x /\ vhdr_ok v)) ->
    exact_for (msg_inside base /\ at_field base path k G <> None) [] (cat_field base path k K)
      (fun x => at_field base path k G = Some x).
  Proof.
    intros Hb HK. unfold cat_field, at_field, cfield.
    eapply exact_bind; [apply exact_msg_resolve, Hb|apply obind_not_none|].
    intros [v l] tr1 (Hv & Hl & Hres & Hin & _). cbn [fst snd] in *.
    eapply spec_bind; [apply exact_alift|].
    { intros (Hi & Hne) E. destruct (Hin Hi) as [Hh _]. apply Hne. rewrite (Hres Hh).
      cbn [obind]. rewrite E. reflexivity. }
    intros f tr2 Hf. destruct (field_bounds l k f Hl Hf) as [Ho Hs].
    eapply exact_of; [apply HK; assumption| |].
    - intros (Hi & Hne). destruct (Hin Hi) as [Hh _]. split; [exact Hh|].
      rewrite (Hres Hh) in Hne. cbn [obind] in Hne. rewrite Hf in Hne. exact Hne.
    - intros x [HG Hh]. rewrite (Hres Hh). cbn [obind]. rewrite Hf. exact HG.
  Qed.

  Lemma exact_get_field base path k : 0 <= base ->
    exact_for (msg_inside base /\ get_field be b m base path k <> None) []
      (cget_field be b m base path k) (fun x => get_field be b m base path k = Some x).
  Proof.
    intros Hb.
    apply (exact_at_field base path k _ (fun pos f => rd_bytes b (pos + f_off f) (f_size f)) Hb).
    intros v l f tr Hv Ho Hs. cbn [fst snd]. pose proof (view_hoff_nonneg v).
    eapply exact_of; [apply exact_get_bytes; [apply Hv|lia|exact Hs]| |]; rewrite <- Z.add_assoc.
    - intros [_ G]. exact G.
    - intros y Hy. split; [exact Hy|]. apply rd_bytes_some in Hy.
      apply (vhdr_from_bound v (f_off f + f_size f)); lia.
  Qed.

  (* array and composite fields: the accessor first makes a view of the field *)
  Lemma exact_static_view tr v f : vnonneg v -> 0 <= f_off f ->
    exact_for (view_block v + f_off f <= len b) tr (cstatic_view b m v f tr)
      (fun a => a = view_block v + f_off f /\ 0 <= a <= len b).
  Proof.
    intros [Hv _] Ho. unfold cstatic_view. pose proof (view_hoff_nonneg v).
    eapply spec_bind; [apply exact_chk; lia|]. cbn beta. intros ? tr1 Hc. apply spec_ret. lia.
  Qed.

  Lemma exact_at_static {A} base path k K (G : Z -> fld -> option A) : 0 <= base ->
    (forall a f tr, 0 <= a <= len b -> 0 <= f_size f ->
       exact_for (G a f <> None) tr (K f a tr) (fun x => G a f = Some x)) ->
    (forall a f, 0 <= a -> 0 <= f_size f -> G a f <> None -> a <= len b) ->
    exact_for (msg_inside base /\ at_field base path k (fun pos f => G (pos + f_off f) f) <> None)
      [] (cat_field base path k (fun r f tr => abind (cstatic_view b m (fst r) f tr) (K f)))
      (fun x => at_field base path k (fun pos f => G (pos + f_off f) f) = Some x).
  Proof.
    intros Hb HK HGle. apply (exact_at_field base path k _ _ Hb).
    intros v l f tr Hv Ho Hs. cbn [fst]. pose proof (view_hoff_nonneg v) as Hh.
    eapply exact_bind; [apply exact_static_view; assumption| |].
    { intros (_ & Hne). apply (HGle _ f); [destruct Hv as [Hv _]; clear - Hv Hh Ho; lia|exact Hs|exact Hne]. }
    intros a tr1 [-> Ha].
    eapply exact_of; [apply HK; assumption|intros [_ Hne]; exact Hne|]. intros x Hx.
    split; [exact Hx|]. apply (vhdr_from_bound v (f_off f)); [exact Ho|apply Ha].
  Qed.

  Lemma exact_array_elem tr a n i : 0 <= a -> 0 <= n ->
    exact_for (a + n <= len b /\ 0 <= i < n) tr (carray_elem b a n i tr)
      (fun x => x = slice b (a + i) 1 /\ 0 <= i < n /\ a + n <= len b).
  Proof.
    intros Ha Hn. unfold carray_elem.
    eapply spec_bind; [apply exact_pre|].
    { intros (_ & Hi). apply andb_true_iff. split; [apply Z.leb_le|apply Z.ltb_lt]; apply Hi. }
    intros ? tr1 Hi.
    apply andb_true_iff in Hi. destruct Hi as [Hi1 Hi2]. apply Z.leb_le in Hi1. apply Z.ltb_lt in Hi2.
    eapply spec_bind; [apply exact_chk; lia|]. cbn beta. intros ? tr2 Hc.
    eapply spec_weaken; [apply spec_touch, inb_intro; lia|]. intros y <-. split; [reflexivity|lia].
  Qed.

  Lemma exact_array_elems a n : 0 <= a -> 0 <= n ->
    forall cnt tr i acc, 0 <= i ->
    exact_for (a + n <= len b /\ i + Z.of_nat cnt <= n) tr (carray_elems b a n cnt i acc tr)
      (fun x => x = acc ++ slice b (a + i) (Z.of_nat cnt) /\ (cnt <> O -> a + n <= len b)).
  Proof.
    intros Ha Hn. induction cnt as [|c IH]; intros tr i acc Hi; cbn [carray_elems].
    - apply spec_ret. rewrite slice_zero, app_nil_r. split; [reflexivity|congruence].
    - eapply exact_bind; [apply exact_array_elem; assumption|clear - Hi; lia|].
      intros y tr1 (-> & Hin & Hb).
      eapply exact_of; [apply IH; clear - Hi; lia|clear; lia|]. intros z [-> _].
      split; [|intros _; exact Hb]. rewrite <- app_assoc, Z.add_assoc, slice_app by lia.
      do 2 f_equal. lia.
  Qed.

  Lemma exact_get_array_elem base path k i : 0 <= base ->
    exact_for (msg_inside base /\ get_array_elem be b m base path k i <> None) []
      (cget_array_elem be b m base path k i)
      (fun x => get_array_elem be b m base path k i = Some x).
  Proof.
    intros Hb. rewrite get_array_elem_eq.
    apply (exact_at_static base path k _ (fun a f => obind (rd_bytes b a (f_size f)) (fun bs =>
      if (0 <=? i) && (i <? len bs) then Some (slice bs i 1) else None)) Hb).
    - intros a f tr Ha Hs. eapply exact_of; [apply exact_array_elem; [apply Ha|exact Hs]| |].
      + intros Hne. destruct (rd_bytes b a (f_size f)) as [bs|] eqn:E;
          [|exfalso; apply Hne; reflexivity].
        apply rd_bytes_some in E. destruct E as (_ & _ & Hle & ->). cbn [obind] in Hne.
        rewrite len_slice in Hne by (apply in_buf_iff; clear - Ha Hs Hle; lia).
        destruct ((0 <=? i) && (i <? f_size f)) eqn:Hi; [|exfalso; apply Hne; reflexivity].
        apply andb_true_iff in Hi. destruct Hi as [Hi1 Hi2]. apply Z.leb_le in Hi1.
        apply Z.ltb_lt in Hi2. clear - Hle Hi1 Hi2. lia.
      + intros y (-> & Hi & Hle). rewrite rd_bytes_in by (clear - Ha Hs Hle; lia). cbn [obind].
        rewrite len_slice by (apply in_buf_iff; clear - Ha Hs Hle; lia).
        rewrite slice_slice by (clear - Ha Hs Hle Hi; lia).
        destruct (Z.leb_spec 0 i); [|lia]. destruct (Z.ltb_spec i (f_size f)); [reflexivity|lia].
    - intros a f Ha Hs Hne. destruct (rd_bytes b a (f_size f)) eqn:E;
        [|exfalso; apply Hne; reflexivity].
      apply rd_bytes_some in E. lia.
  Qed.

  Lemma exact_get_array base path k : 0 <= base ->
    exact_for (msg_inside base /\ get_field be b m base path k <> None) []
      (cget_array be b m base path k) (fun x => get_field be b m base path k = Some x).
  Proof.
    intros Hb. apply (exact_at_static base path k _ (fun a f => rd_bytes b a (f_size f)) Hb).
    - intros a f tr Ha Hs.
      eapply exact_of; [apply exact_array_elems; [lia|exact Hs|lia]| |].
      + intros Hne. apply rd_bytes_not_none in Hne. rewrite Z2Nat.id by exact Hs. lia.
      + intros y [-> Hle]. rewrite Z.add_0_r, Z2Nat.id by exact Hs. apply rd_bytes_in.
        destruct (Z.eq_dec (f_size f) 0); [lia|]. specialize (Hle ltac:(lia)). lia.
    - intros a f Ha Hs Hne. apply rd_bytes_not_none in Hne. lia.
  Qed.

  Lemma exact_get_comp_member base path k moff msize : 0 <= base -> 0 <= moff -> 0 <= msize ->
    exact_for (msg_inside base /\ get_comp_member be b m base path k moff msize <> None) []
      (cget_comp_member be b m base path k moff msize)
      (fun x => get_comp_member be b m base path k moff msize = Some x).
  Proof.
    intros Hb Hmo Hms.
    apply (exact_at_static base path k _ (fun a _ => rd_bytes b (a + moff) msize) Hb).
    - intros a f tr Ha Hs. apply exact_get_bytes; lia.
    - intros a f Ha Hs Hne. apply rd_bytes_not_none in Hne. lia.
  Qed.

  Lemma exact_group_at_path tr base path k : 0 <= base ->
    exact_for (msg_inside base /\ locate_group be b m base path k <> None) tr
      (cgroup_at_path be b m base path k tr)
      (fun q => let '(g, d, cbl, sub) := q in
                0 <= g /\ wf_dim d /\ 0 <= cbl /\ wf_table_level sub /\
                (msg_inside base -> groups_inside F (GCons d cbl sub GNil) g) /\
                forall gv, group_at be b d g = Some gv ->
                  locate_group be b m base path k = Some (gv, d, cbl, sub)).
  Proof.
    intros Hb. unfold cgroup_at_path.
    eapply exact_bind; [apply exact_msg_resolve, Hb|apply obind_not_none|].
    intros [v l] tr1 (Hv & Hl & Hres & Hin & _). cbn [fst snd] in *.
    pose proof (wf_level_groups l Hl) as Hgs.
    eapply exact_bind; [apply exact_first_dyn, Hv|intros (Hi & _); apply Hin, Hi|].
    intros p0 tr2 (-> & Hh & Hp0).
    eapply exact_of; [apply exact_nth_group; [exact Hgs|exact Hp0]| |].
    - intros (Hi & Hne). split; [apply level_groups_inside, Hin, Hi|].
      intros E. apply Hne. unfold locate_group. rewrite (Hres Hh). cbn [obind]. fold F.
      rewrite E. reflexivity.
    - intros [[[g d] cbl] sub] Hnth.
      destruct (nth_group_inside _ _ _ _ _ _ _ Hgs Hnth) as (Hg & Hd & Hc & Hsub & Hgin).
      refine (conj (Z.le_trans _ _ _ Hp0 Hg) (conj Hd (conj Hc (conj Hsub (conj _ _))))).
      + intros Hi. apply Hgin, level_groups_inside, Hin, Hi.
      + intros gv Hga. unfold locate_group. rewrite (Hres Hh). cbn [obind]. fold F.
        rewrite Hnth. cbn [obind]. rewrite Hga. reflexivity.
  Qed.

  Lemma exact_group_info base path k : 0 <= base ->
    exact_for (msg_inside base /\ locate_group be b m base path k <> None) []
      (cgroup_info be b m base path k) (fun x => locate_group be b m base path k = Some x).
  Proof.
    intros Hb. unfold cgroup_info.
    eapply exact_bind; [apply exact_group_at_path, Hb|auto|].
    intros [[[g d] cbl] sub] tr1 (Hg & Hd & _ & Hsub & Hin & Hloc).
    eapply exact_bind; [apply exact_group_bl; assumption| |].
    { intros (Hi & _). split; apply (group_inside_inv F d cbl sub g Hd Hsub (Hin Hi)). }
    intros bl tr2 Hbl.
    eapply exact_bind; [apply exact_group_num; assumption| |].
    { intros (Hi & _). split; apply (group_inside_inv F d cbl sub g Hd Hsub (Hin Hi)). }
    intros n tr3 Hn.
    apply spec_ret, Hloc, group_at_intro; assumption.
  Qed.

  Lemma exact_group_size_bytes base path k : 0 <= base ->
    exact_for (msg_inside base /\ group_size_bytes be b m base path k <> None) []
      (cgroup_size_bytes be b m base path k)
      (fun x => group_size_bytes be b m base path k = Some x).
  Proof.
    intros Hb. unfold cgroup_size_bytes.
    eapply exact_bind; [apply exact_group_at_path, Hb|apply obind_not_none|].
    intros [[[g d] cbl] sub] tr1 (Hg & Hd & Hc & Hsub & Hin & Hloc).
    eapply exact_bind;
      [apply exact_groups_end; [apply wf_group_single; assumption|exact Hg]|intros (Hi & _); apply Hin, Hi|].
    intros e tr2 He. apply spec_ret.
    destruct (groups_end_cons_inv _ _ _ _ _ _ _ He) as (bl & n & _ & Hbl & Hn & _).
    unfold group_size_bytes. rewrite (Hloc _ (group_at_intro d g bl n Hbl Hn)).
    cbn [obind gv_pos]. rewrite He. reflexivity.
  Qed.

  Lemma exact_view_end tr v l : vnonneg v -> wf_table_level l ->
    exact_for (vhdr_ok v /\ level_inside F l (view_block v) (vbl v)) tr (cview_end be b m F v l tr)
      (fun e => vhdr_ok v /\ level_end be b F l (view_block v) (vbl v) = Some e).
  Proof.
    intros Hv Hl. unfold cview_end. pose proof (view_hoff_nonneg v) as Hh0. pose proof Hv as [Hs Hb0].
    eapply exact_bind; [apply exact_first_dyn, Hv|intros [G _]; exact G|]. intros p0 tr1 (-> & Hh & Hp0).
    (* what follows the first step is [clevel_end] of the block *)
    destruct l as [fs gs ds].
    eapply exact_of;
      [apply (exact_level_end (Level fs gs ds) F tr1 (view_block v) (vbl v) Hl); clear - Hs Hh0 Hb0; lia
      |intros [_ G]; exact G|].
    intros e He. split; [exact Hh|exact He].
  Qed.

  Lemma exact_view_size_bytes tr v l : vnonneg v -> wf_table_level l ->
    exact_for (vhdr_ok v /\ level_inside F l (view_block v) (vbl v) /\
               level_size_bytes be b F l (view_start v) (view_hoff m v) (vbl v) <> None) tr
      (cview_size_bytes be b m v l tr)
      (fun s => vhdr_ok v /\
                level_size_bytes be b F l (view_start v) (view_hoff m v) (vbl v) = Some s).
  Proof.
    intros Hv Hl. unfold cview_size_bytes, level_size_bytes. destruct (is_flat l).
    - destruct v as [base|pos bl]; cbn [view_start view_hoff vbl vhdr_ok].
      + eapply exact_bind; [apply exact_msg_bl, Hv|intros [G _]; exact G|]. intros bl tr1 [-> Hh].
        eapply spec_weaken; [apply exact_alift; intros (_ & _ & G); exact G|]. auto.
      + eapply spec_weaken; [apply exact_alift; intros (_ & _ & G); exact G|]. auto.
    - eapply exact_bind; [apply exact_view_end; assumption|intros (G1 & G2 & _); exact (conj G1 G2)|].
      intros e tr1 [Hh He].
      apply spec_ret. rewrite He. auto.
  Qed.

  Lemma exact_entry_size_bytes base path : 0 <= base ->
    exact_for (msg_inside base /\ entry_or_msg_size be b m base path <> None) []
      (centry_size_bytes be b m base path)
      (fun x => entry_or_msg_size be b m base path = Some x).
  Proof.
    intros Hb. unfold centry_size_bytes.
    eapply exact_bind; [apply exact_msg_resolve, Hb| |].
    { intros (Hi & Hne). split; [exact Hi|]. intros E. apply Hne.
      destruct path; cbn [entry_or_msg_size].
      - unfold msg_resolve in E. unfold msg_size_bytes.
        destruct (msg_block_length be b m base); [discriminate E|reflexivity].
      - unfold entry_size_bytes. rewrite E. reflexivity. }
    intros [v l] tr1 (Hv & Hl & Hres & Hin & Hshape). cbn [fst snd] in *.
    assert (Heq : vhdr_ok v -> entry_or_msg_size be b m base path =
              level_size_bytes be b F l (view_start v) (view_hoff m v) (vbl v)).
    { intros Hh. destruct path as [|st rest]; cbn [entry_or_msg_size].
      - injection Hshape as -> ->. unfold msg_size_bytes.
        rewrite msg_block_length_ok; [reflexivity|exact Hb|exact Hh].
      - destruct Hshape as (p & bl & ->). unfold entry_size_bytes.
        rewrite (Hres Hh). cbn [obind view_start view_hoff vbl]. rewrite Z.add_0_r. reflexivity. }
    eapply exact_of; [apply exact_view_size_bytes; assumption| |].
    - intros (Hi & Hne). destruct (Hin Hi) as [Hh Hli]. rewrite (Heq Hh) in Hne. auto.
    - intros s0 [Hh Hs]. rewrite (Heq Hh). exact Hs.
  Qed.

  Lemma exact_data_at_path tr base path k : 0 <= base ->
    exact_for (msg_inside base /\ locate_data be b m base path k <> None) tr
      (cdata_at_path be b m base path k tr)
      (fun q => 0 <= fst q /\ locate_data be b m base path k = Some q).
  Proof.
    intros Hb. unfold cdata_at_path.
    eapply exact_bind; [apply exact_msg_resolve, Hb|apply obind_not_none|].
    intros [v l] tr1 (Hv & Hl & Hres & Hin & _). cbn [fst snd] in *.
    pose proof (wf_level_groups l Hl) as Hgs.
    eapply exact_bind; [apply exact_first_dyn, Hv|intros (Hi & _); apply Hin, Hi|].
    intros p0 tr2 (-> & Hh & Hp0).
    eapply exact_bind; [apply exact_groups_end; [exact Hgs|exact Hp0]| |].
    { intros (Hi & _). apply level_groups_inside, Hin, Hi. }
    intros p tr3 H1. pose proof (groups_end_mono _ _ _ _ Hgs H1).
    eapply exact_of; [apply exact_nth_data; lia| |].
    - intros (_ & Hne) E. apply Hne. unfold locate_data. rewrite (Hres Hh). cbn [obind].
      rewrite H1. exact E.
    - intros [q t] H2. split; [apply nth_data_pos_ge in H2; cbn [fst]; lia|].
      unfold locate_data. rewrite (Hres Hh). cbn [obind]. rewrite H1. exact H2.
  Qed.

  Lemma exact_data_info base path k : 0 <= base ->
    exact_for (msg_inside base /\ data_info be b m base path k <> None) []
      (cdata_info be b m base path k) (fun x => data_info be b m base path k = Some x).
  Proof.
    intros Hb. unfold cdata_info, data_info.
    eapply exact_bind; [apply exact_data_at_path, Hb|apply obind_not_none|].
    intros [p t] tr1 [Hp ->]. cbn [obind fst snd] in *.
    eapply exact_bind; [apply exact_data_len, Hp| |].
    { intros (_ & Hne) E. apply Hne. rewrite E. reflexivity. }
    intros n tr2 Hn. apply spec_ret. rewrite Hn. reflexivity.
  Qed.

  Lemma exact_get_data base path k : 0 <= base ->
    exact_for (msg_inside base /\ get_data be b m base path k <> None) []
      (cget_data be b m base path k) (fun x => get_data be b m base path k = Some x).
  Proof.
    intros Hb. unfold cget_data, get_data.
    eapply exact_bind; [apply exact_data_at_path, Hb|apply obind_not_none|].
    intros [p t] tr1 [Hp ->]. cbn [fst obind] in *.
    eapply exact_bind; [apply exact_data_len, Hp| |].
    { intros (_ & Hne) E. apply Hne. rewrite E. reflexivity. }
    intros n tr2 Hn. rewrite Hn. cbn [obind].
    pose proof (rd_some _ _ _ Hn) as (_ & Hple & _ & Hn0 & _). pose proof (tbytes_pos t) as Ht.
    destruct (Z.eqb_spec n 0) as [->|Hne].
    - apply spec_ret. apply rd_bytes_in; clear - Hp Hple Ht; lia.
    - unfold chk_begin.
      eapply spec_bind; [apply exact_chk; [clear - Hp; lia|]|].
      { intros (_ & G). apply rd_bytes_not_none in G. clear - G Hn0 Ht; lia. }
      intros ? tr3 _.
      eapply exact_bind; [apply exact_data_len, Hp|intros _; rewrite Hn; discriminate|].
      intros n' tr4 Hn'. rewrite Hn in Hn'. injection Hn' as <-.
      eapply spec_bind; [apply exact_chk; [clear - Hp Ht Hn0; lia|]|].
      { intros (_ & G). apply rd_bytes_not_none in G. clear - G Hn0 Ht; lia. }
      cbn beta. intros ? tr5 Hc.
      eapply spec_bind; [apply exact_chk; [clear - Hp Ht; lia|]|].
      { intros (_ & G). apply rd_bytes_not_none in G. clear - G Hn0 Ht; lia. }
      intros ? tr6 _.
      eapply spec_weaken; [apply spec_touch, inb_intro; clear - Hp Ht Hn0 Hc; lia|]. intros y <-.
      apply rd_bytes_in; clear - Hp Ht Hn0 Hc; lia.
  Qed.

  Lemma exact_amap_opt {A} (good : Prop) (f : A -> oval) r u :
    exact_for (good /\ u <> None) [] r (fun x => u = Some x) ->
    exact_for (good /\ option_map f u <> None) [] (amap f r) (fun v => option_map f u = Some v).
  Proof.
    intros H. apply spec_amap. eapply exact_of; [exact H| |].
    - intros (G & Hne). split; [exact G|]. intros E. apply Hne. rewrite E. reflexivity.
    - intros x ->. reflexivity.
  Qed.

  Lemma exact_run base o : 0 <= base -> op_args_ok o ->
    exact_for (msg_inside base /\ run_unchecked be b m base o <> None) []
      (run_checked be b m base o) (fun v => run_unchecked be b m base o = Some v).
  Proof.
    intros Hb Ha. destruct o; apply exact_amap_opt.
    - apply exact_get_field, Hb.
    - apply exact_get_array_elem, Hb.
    - apply exact_get_array, Hb.
    - apply exact_get_comp_member; [exact Hb|apply Ha..].
    - apply exact_group_info, Hb.
    - apply exact_group_size_bytes, Hb.
    - apply exact_entry_size_bytes, Hb.
    - apply (exact_entry_size_bytes base [] Hb).
    - apply exact_data_info, Hb.
    - apply exact_get_data, Hb.
  Qed.
End Buffer.

Theorem checked_touches_inside : stmt_checked_touches_inside.
Proof.
  intros be b m base o Hm (Hok & Hlen & Hb) Ha.
  destruct (exact_run be b Hok Hlen m Hm base o Hb Ha) as (d & Ht & Hd & _).
  rewrite Ht. cbn [app]. eapply Forall_impl; [|exact Hd].
  intros r H. apply in_buf_iff in H. exact H.
Qed.
Print Assumptions checked_touches_inside.

Theorem checked_agrees : stmt_checked_agrees.
Proof.
  intros be b m base o v tr Hm (Hok & Hlen & Hb) Ha Hrun.
  destruct (exact_run be b Hok Hlen m Hm base o Hb Ha) as (d & _ & _ & Hq).
  rewrite Hrun in Hq. exact Hq.
Qed.
Print Assumptions checked_agrees.

Theorem checked_report_justified : stmt_checked_report_justified.
Proof.
  intros be b m base o tr begin off size Hm (Hok & Hlen & Hb) Ha Hrun.
  destruct (exact_run be b Hok Hlen m Hm base o Hb Ha) as (d & _ & _ & Hq).
  rewrite Hrun in Hq. apply Hq.
Qed.
Print Assumptions checked_report_justified.

Theorem checked_no_spurious : stmt_checked_no_spurious.
Proof.
  intros be b m base o s v Hm Hnw (Hok & Hlen & Hb) Ha Hs Hle Hrun.
  destruct (exact_run be b Hok Hlen m Hm base o Hb Ha) as (d & _ & _ & Hq).
  destruct (run_checked be b m base o) as [x t|t w].
  - exists t. rewrite Hq in Hrun. injection Hrun as ->. reflexivity.
  - destruct Hq as [_ Hn]. exfalso. apply Hn. split; [split; [exact Hnw|eauto]|].
    rewrite Hrun. discriminate.
Qed.
Print Assumptions checked_no_spurious.

Module Witness.
  (* dimension: blockLength uint16 @0, numInGroup uint16 @2, numGroups uint16 @4 *)
  Definition d : dim :=
    {| d_size := 6; d_bl_off := 0; d_bl_t := U16; d_n_off := 2; d_n_t := U16; d_fills := [] |}.
  Definition sub : level := Level [{| f_off := 0; f_size := 1 |}] GNil [].
  Definition m : message :=
    {| m_hdr_size := 8; m_bl_off := 0; m_bl_t := U16; m_cbl := 0; m_fills := [];
       m_level := Level [] (GCons d 1 sub GNil) [] |}.
  (* header (blockLength 0), then blockLength = 1 and numInGroup = 0 of the
     dimension; the buffer ends before the dimension's third member *)
  Definition b : list Z := [0; 0; 0; 0; 0; 0; 0; 0; 1; 0; 0; 0].
  Definition o : op := OGroupInfo [] 0.

  Lemma wf : wf_msg m.
  Proof.
    unfold wf_msg, m. cbn [m_bl_off m_bl_t m_hdr_size m_level wf_table_level wf_table_groups].
    unfold wf_dim, is_unsigned_ity, d, sub. cbn.
    repeat split; try lia; try reflexivity; try (left; lia); repeat constructor; cbn; lia.
  Qed.

  Lemma nowrap : msg_nowrap m.
  Proof. unfold msg_nowrap, m. cbn [m_level nowrap_level nowrap_groups]. repeat split; vm_compute; discriminate. Qed.

  Lemma env : env_ok b 0.
  Proof. unfold env_ok. repeat split; vm_compute; try reflexivity; discriminate. Qed.

  Lemma unchecked :
    run_unchecked false b m 0 o = Some (VGroup {| gv_pos := 8; gv_bl := 1; gv_n := 0 |} d 1 sub).
  Proof. vm_compute. reflexivity. Qed.

  Lemma checked : run_checked false b m 0 o = AAssert [(0, 2)] (WCheck 8 0 6).
  Proof. vm_compute. reflexivity. Qed.
End Witness.

Theorem read_extent_criterion_refuted : ~ stmt_read_extent_criterion.
Proof.
  intros H.
  destruct (H false Witness.b Witness.m 0 Witness.o _ Witness.wf Witness.nowrap Witness.env I
              Witness.unchecked) as [tr E].
  rewrite Witness.checked in E. discriminate E.
Qed.
Print Assumptions read_extent_criterion_refuted.
