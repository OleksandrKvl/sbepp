(* SizeCheck.v — SBEPP_SIZE_CHECK(begin, end, offset, size) (sbepp.hpp):
     begin && begin <= end && (offset + size) <= static_cast<std::size_t>(end - begin)
   modelled in Cursor.size_check; what it guarantees. *)
From Coq Require Import ZArith Bool Lia.
From Sbepp Require Import Cursor.
Local Open Scope Z_scope.
(* in this file [lia] also decides goals with [/] and [mod] by constants *)
Local Ltac Zify.zify_post_hook ::= Z.div_mod_to_equations.

(* a passed check means the accessed bytes [begin+offset, begin+offset+size)
   lie inside [begin, end) -- wherever the view starts *)
Lemma size_check_inside b e off sz :
  size_check b e off sz = true -> b <= e /\ b + off + sz <= e.
Proof.
  unfold size_check. intros H. apply andb_true_iff in H. destruct H as [H1 H2].
  apply Z.leb_le in H1, H2. pose proof (Z.mod_le (e - b) (2 ^ 64)). lia.
Qed.

Lemma size_check_sound b e off sz :
  e - b < 2 ^ 64 -> size_check b e off sz = true -> b <= e /\ b + off + sz <= e.
Proof. intros _. apply size_check_inside. Qed.

(* no spurious failure: accessed bytes inside the buffer pass *)
Lemma size_check_complete b e off sz :
  b <= e -> e - b < 2 ^ 64 -> b + off + sz <= e -> size_check b e off sz = true.
Proof.
  unfold size_check. intros Hbe Hlt H. apply andb_true_iff. split; apply Z.leb_le; [lia|].
  rewrite Z.mod_small by lia. lia.
Qed.

Lemma size_check_iff b e off size : e - b < 2 ^ 64 ->
  size_check b e off size = true <-> b <= e /\ b + off + size <= e.
Proof.
  intros H. split; [apply size_check_inside|].
  intros [H1 H2]. apply size_check_complete; assumption.
Qed.

(* the macro before the fix converted a negative end - begin to size_t: a view
   that starts PAST the end of its buffer passed the check *)
Lemma legacy_size_check_begin_past_end_refuted :
  exists b e off sz, e < b /\ legacy_size_check b e off sz = true /\ e < b + off + sz.
Proof. exists 1012, 64, 0, 4. vm_compute. repeat split; reflexivity. Qed.
