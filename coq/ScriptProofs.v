(* ScriptProofs.v — C01: the in-order setter script of a value tree produces
   the reference image over the background (statement in ScriptSpec.v).

   Method: every buffer met while the script runs has the fixed length [L];
   "b' has prefix p" ([pref p b']) is the only thing navigation may depend on.
   The main induction (over the value tree) carries, besides the result of the
   script, the navigation facts over the part already written, stated for
   EVERY buffer sharing the written prefix (so later writes cannot disturb
   them). *)
From Coq Require Import ZArith List Bool Lia.
From Sbepp Require Import CInt CIntFacts Bytes BytesFacts Msg Layout Wire MsgSpec LayoutProofs
  MsgProofs Cursor CursorSpec CursorProofs Checked ScriptSpec FillProofs.
Import ListNotations.
Local Open Scope Z_scope.

Scheme wlevel_mind := Induction for wlevel Sort Prop
  with wgroups_mind := Induction for wgroups Sort Prop
  with wentries_mind := Induction for wentries Sort Prop.
Combined Scheme wtree_mutind from wlevel_mind, wgroups_mind, wentries_mind.

Lemma over_datas_cons be t ds p wds bg :
  over_datas be (t :: ds) (p :: wds) bg =
  (enc be (tw t) (len p) ++ p ++ fst (over_datas be ds wds (drop (tbytes t + len p) bg)),
   snd (over_datas be ds wds (drop (tbytes t + len p) bg))).
Proof.
  cbn [over_datas]. destruct (over_datas be ds wds (drop (tbytes t + len p) bg)). reflexivity.
Qed.

Lemma over_level_eq be l cbl fv wgs wds bg :
  over_level be l cbl (WLevel fv wgs wds) bg =
  (put_fields (level_fields l) fv (take cbl bg)
     ++ fst (over_groups be (level_groups l) wgs (drop cbl bg))
     ++ fst (over_datas be (level_datas l) wds
               (snd (over_groups be (level_groups l) wgs (drop cbl bg)))),
   snd (over_datas be (level_datas l) wds
          (snd (over_groups be (level_groups l) wgs (drop cbl bg))))).
Proof.
  cbn [over_level]. destruct (over_groups be (level_groups l) wgs (drop cbl bg)) as [gi bg2].
  cbn [fst snd]. destruct (over_datas be (level_datas l) wds bg2). reflexivity.
Qed.

Lemma over_groups_cons be d cbl l rest es wrest bg :
  over_groups be (GCons d cbl l rest) (WGCons es wrest) bg =
  (put_fills be (d_fills d) cbl (wecount es) (take (d_size d) bg)
     ++ fst (over_entries be l cbl es (drop (d_size d) bg))
     ++ fst (over_groups be rest wrest (snd (over_entries be l cbl es (drop (d_size d) bg)))),
   snd (over_groups be rest wrest (snd (over_entries be l cbl es (drop (d_size d) bg))))).
Proof.
  cbn [over_groups]. destruct (over_entries be l cbl es (drop (d_size d) bg)) as [ei bg2].
  cbn [fst snd]. destruct (over_groups be rest wrest bg2). reflexivity.
Qed.

Lemma over_entries_cons be l cbl e r bg :
  over_entries be l cbl (WECons e r) bg =
  (fst (over_level be l cbl e bg) ++ fst (over_entries be l cbl r (snd (over_level be l cbl e bg))),
   snd (over_entries be l cbl r (snd (over_level be l cbl e bg)))).
Proof.
  cbn [over_entries]. destruct (over_level be l cbl e bg) as [i1 bg1].
  cbn [fst snd]. destruct (over_entries be l cbl r bg1). reflexivity.
Qed.

Lemma wdatas_size_nonneg : forall ds wds, 0 <= wdatas_size ds wds.
Proof.
  induction ds as [|t ds IH]; intros [|p wds]; cbn [wdatas_size]; try lia.
  specialize (IH wds). pose proof (tbytes_pos t). pose proof (len_nonneg p). lia.
Qed.

Lemma wecount_nonneg es : 0 <= wecount es.
Proof. induction es as [|e r IH]; cbn [wecount]; lia. Qed.

Lemma dim_fills_ok_size d : dim_fills_ok d -> 1 <= d_size d.
Proof. intros (Hd & _). apply wf_dim_size_pos, Hd. Qed.

Lemma sizes_nonneg :
  (forall w cbl l, wf_wlevel cbl l w -> cbl <= wlevel_size cbl l w) /\
  (forall wgs gs, wf_wgroups gs wgs -> 0 <= wgroups_size gs wgs) /\
  (forall es cbl l, wf_wentries cbl l es -> 0 <= wentries_size cbl l es).
Proof.
  apply wtree_mutind.
  - intros fv wgs IHg wds cbl l (_ & _ & Hg & _). cbn [wlevel_size]. specialize (IHg _ Hg).
    pose proof (wdatas_size_nonneg (level_datas l) wds). lia.
  - intros gs _. destruct gs; cbn [wgroups_size]; lia.
  - intros es IHe wrest IHr [|d cbl l rest] Hwf; [contradiction|].
    destruct Hwf as (Hd & _ & _ & _ & He & Hr).
    cbn [wgroups_size]. specialize (IHe _ _ He). specialize (IHr _ Hr).
    pose proof (dim_fills_ok_size d Hd). lia.
  - intros cbl l _. cbn [wentries_size]. lia.
  - intros e IHl r IHr cbl l [He Hr].
    cbn [wentries_size]. specialize (IHl _ _ He). specialize (IHr _ _ Hr).
    assert (0 <= cbl) by (destruct e; apply He). lia.
Qed.

Lemma wlevel_size_nested cbl l w : wf_wlevel cbl l w -> is_flat l = false ->
  cbl + 1 <= wlevel_size cbl l w.
Proof.
  destruct w as [fv wgs wds]. intros (Hc & _ & Hg & Hd) Hfl. cbn [wlevel_size].
  pose proof (proj1 (proj2 sizes_nonneg) _ _ Hg) as Hg0.
  pose proof (wdatas_size_nonneg (level_datas l) wds) as Hd0.
  unfold is_flat in Hfl.
  destruct (level_groups l) as [|d c sub rest].
  - (* no groups: the first data has a length prefix *)
    destruct (level_datas l) as [|t ds]; [discriminate|].
    destruct wds as [|p wds]; [contradiction|]. cbn [wdatas_size] in *.
    pose proof (tbytes_pos t). pose proof (len_nonneg p).
    pose proof (wdatas_size_nonneg ds wds). lia.
  - (* the first group has a dimension *)
    destruct wgs as [|es wrest]; [contradiction|].
    destruct Hg as (Hdd & _ & _ & _ & He & Hr). cbn [wgroups_size] in *.
    pose proof (proj2 (proj2 sizes_nonneg) _ _ _ He).
    pose proof (proj1 (proj2 sizes_nonneg) _ _ Hr).
    pose proof (dim_fills_ok_size d Hdd). lia.
Qed.

Lemma len_put_pieces base fsz : forall ps block,
  0 <= base -> base + fsz <= len block -> pieces_ok fsz ps ->
  len (put_pieces base ps block) = len block.
Proof.
  induction ps as [|[o bs] r IH]; intros block Hb Hle Hok; cbn [put_pieces]; [reflexivity|].
  destruct Hok as (Ho & Hole & Hr).
  assert (Hin : in_buf block (base + o) (len bs) = true).
  { apply in_buf_iff. pose proof (len_nonneg bs). lia. }
  rewrite IH; [apply len_splice; exact Hin|exact Hb| |exact Hr].
  rewrite len_splice by exact Hin. exact Hle.
Qed.

Lemma len_put_fields cbl : forall fs fv block,
  fvals_ok cbl fs fv -> len block = cbl -> len (put_fields fs fv block) = cbl.
Proof.
  induction fs as [|f fs IH]; intros [|ps fv] block Hok Hl; cbn [put_fields]; try exact Hl.
  destruct Hok as (Ho & Hle & Hp & Hr).
  apply IH; [exact Hr|].
  rewrite (len_put_pieces (f_off f) (f_size f)); [exact Hl|exact Ho|lia|exact Hp].
Qed.

Lemma over_datas_lens be : forall ds wds bg,
  wdatas_ok ds wds -> wdatas_size ds wds <= len bg ->
  len (fst (over_datas be ds wds bg)) = wdatas_size ds wds /\
  len (snd (over_datas be ds wds bg)) = len bg - wdatas_size ds wds.
Proof.
  induction ds as [|t ds IH]; intros [|p wds] bg Hok Hle; try contradiction.
  - cbn [over_datas fst snd wdatas_size]. rewrite len_nil. lia.
  - destruct Hok as (_ & _ & Hr).
    cbn [wdatas_size] in *. rewrite over_datas_cons. cbn [fst snd].
    pose proof (tbytes_pos t). pose proof (len_nonneg p).
    pose proof (wdatas_size_nonneg ds wds).
    assert (Hd : len (drop (tbytes t + len p) bg) = len bg - (tbytes t + len p))
      by (apply len_drop; lia).
    destruct (IH wds (drop (tbytes t + len p) bg) Hr ltac:(lia)) as [IH1 IH2].
    rewrite !len_app, len_enc_tw, IH1, IH2. lia.
Qed.

Lemma over_lens be :
  (forall w cbl l bg, wf_wlevel cbl l w -> wlevel_size cbl l w <= len bg ->
     len (fst (over_level be l cbl w bg)) = wlevel_size cbl l w /\
     len (snd (over_level be l cbl w bg)) = len bg - wlevel_size cbl l w) /\
  (forall wgs gs bg, wf_wgroups gs wgs -> wgroups_size gs wgs <= len bg ->
     len (fst (over_groups be gs wgs bg)) = wgroups_size gs wgs /\
     len (snd (over_groups be gs wgs bg)) = len bg - wgroups_size gs wgs) /\
  (forall es cbl l bg, wf_wentries cbl l es -> wentries_size cbl l es <= len bg ->
     len (fst (over_entries be l cbl es bg)) = wentries_size cbl l es /\
     len (snd (over_entries be l cbl es bg)) = len bg - wentries_size cbl l es).
Proof.
  apply wtree_mutind.
  - intros fv wgs IHg wds cbl l bg (Hc & Hf & Hg & Hd) Hle.
    cbn [wlevel_size] in *. rewrite over_level_eq. cbn [fst snd].
    pose proof (proj1 (proj2 sizes_nonneg) _ _ Hg) as Hg0.
    pose proof (wdatas_size_nonneg (level_datas l) wds) as Hd0.
    assert (Hdr : len (drop cbl bg) = len bg - cbl) by (apply len_drop; lia).
    destruct (IHg (level_groups l) (drop cbl bg) Hg ltac:(lia)) as [G1 G2].
    destruct (over_datas_lens be (level_datas l) wds _ Hd ltac:(rewrite G2; lia)) as [D1 D2].
    rewrite !len_app, G1, D1, D2, G2.
    rewrite (len_put_fields cbl _ _ _ Hf) by (apply len_take; lia). lia.
  - intros gs bg _ _. destruct gs; cbn [over_groups wgroups_size fst snd]; rewrite len_nil; lia.
  - intros es IHe wrest IHr [|d cbl l rest] bg Hwf Hle; [contradiction|].
    destruct Hwf as (Hd & _ & _ & _ & He & Hr).
    cbn [wgroups_size] in *. rewrite over_groups_cons. cbn [fst snd].
    pose proof (dim_fills_ok_size d Hd) as Hs.
    pose proof (proj2 (proj2 sizes_nonneg) _ _ _ He) as He0.
    pose proof (proj1 (proj2 sizes_nonneg) _ _ Hr) as Hr0.
    assert (Hdr : len (drop (d_size d) bg) = len bg - d_size d) by (apply len_drop; lia).
    destruct (IHe cbl l (drop (d_size d) bg) He ltac:(lia)) as [E1 E2].
    destruct (IHr rest _ Hr ltac:(rewrite E2; lia)) as [R1 R2].
    rewrite !len_app, E1, R1, R2, E2.
    rewrite (len_put_fills be cbl (wecount es) (d_size d)); [lia|apply len_take; lia|apply Hd].
  - intros cbl l bg _ _. cbn [over_entries wentries_size fst snd]. rewrite len_nil. lia.
  - intros e IHl r IHr cbl l bg [He Hr] Hle.
    cbn [wentries_size] in *. rewrite over_entries_cons. cbn [fst snd].
    pose proof (proj1 sizes_nonneg _ _ _ He) as He0.
    pose proof (proj2 (proj2 sizes_nonneg) _ _ _ Hr) as Hr0.
    destruct (IHl cbl l bg He ltac:(lia)) as [L1 L2].
    destruct (IHr cbl l _ Hr ltac:(rewrite L2; lia)) as [R1 R2].
    rewrite !len_app, L1, R1, R2, L2. lia.
Qed.

Lemma exec_app be m base : forall s1 s2 b,
  exec_script be m base b (s1 ++ s2)
  = obind (exec_script be m base b s1) (fun b' => exec_script be m base b' s2).
Proof.
  induction s1 as [|o r IH]; intros s2 b; cbn [exec_script app obind]; [reflexivity|].
  destruct (exec_sop be m base b o) as [b1|]; cbn [obind]; [apply IH|reflexivity].
Qed.

Lemma resolve_app be b fuel st : forall path l pos bl,
  resolve be b fuel (path ++ [st]) l pos bl
  = obind (resolve be b fuel path l pos bl) (fun r =>
      let '(p, bl', l') := r in resolve be b fuel [st] l' p bl').
Proof.
  induction path as [|[k i] rest IH]; intros l pos bl.
  - reflexivity.
  - cbn [app]. rewrite !resolve_cons.
    destruct (nth_group_pos be b fuel (level_groups l) k (pos + bl)) as [[[[gpos d] c] sub]|];
      cbn [obind]; [|reflexivity].
    destruct (group_at be b d gpos) as [g|]; cbn [obind]; [|reflexivity].
    destruct (entry_pos be b fuel d sub g i) as [epos|]; cbn [obind]; [|reflexivity].
    apply IH.
Qed.

(* the k-th group of the level found at [path] *)
Definition gloc (be : bool) (m : message) (base : Z) (b : list Z) (path : list step) (k : nat)
  : option (Z * dim * Z * level) :=
  obind (msg_resolve be b m base path) (fun r =>
    let '(pos, bl, l) := r in
    nth_group_pos be b (default_fuel b) (level_groups l) k (pos + bl)).

Lemma group_fill_header_gloc be m base b path k n :
  group_fill_header be b m base path k n
  = obind (gloc be m base b path k) (fun q =>
      let '(gpos, d, cbl, _) := q in do_fills be b gpos (d_fills d) cbl n).
Proof.
  unfold group_fill_header, gloc.
  destruct (msg_resolve be b m base path) as [[[pos bl] l]|]; reflexivity.
Qed.

Lemma msg_resolve_snoc be m base b path k i :
  msg_resolve be b m base (path ++ [SGroup k i])
  = obind (gloc be m base b path k) (fun q =>
      let '(gpos, d, _, sub) := q in
      obind (group_at be b d gpos) (fun g =>
      obind (entry_pos be b (default_fuel b) d sub g i) (fun epos =>
      Some (epos, gv_bl g, sub)))).
Proof.
  unfold gloc, msg_resolve.
  destruct (msg_block_length be b m base) as [bl|]; cbn [obind]; [|reflexivity].
  rewrite resolve_app.
  destruct (resolve be b (default_fuel b) path (m_level m) (base + m_hdr_size m) bl)
    as [[[p bl'] l']|]; cbn [obind]; [|reflexivity].
  rewrite resolve_cons.
  destruct (nth_group_pos be b (default_fuel b) (level_groups l') k (p + bl'))
    as [[[[gpos d] c] sub]|]; cbn [obind]; [|reflexivity].
  destruct (group_at be b d gpos) as [g|]; cbn [obind]; [|reflexivity].
  destruct (entry_pos be b (default_fuel b) d sub g i) as [epos|]; reflexivity.
Qed.

(* one more entry walked *)
Lemma entries_walk_snoc be b fuel l bl : forall k i p q q',
  0 <= i -> i < Z.of_nat k ->
  entries_walk be b fuel l bl k i p = Some q ->
  level_end be b fuel l q bl = Some q' ->
  entries_walk be b fuel l bl k (i + 1) p = Some q'.
Proof.
  induction k as [|k IH]; intros i p q q' Hi Hk Hw Hl; [lia|].
  destruct (Z.eq_dec i 0) as [->|Hne].
  - rewrite entries_walk_0 in Hw. inversion Hw; subst q.
    rewrite entries_walk_S by lia. rewrite Hl. cbn [obind].
    replace (0 + 1 - 1) with 0 by lia. apply entries_walk_0.
  - rewrite entries_walk_S in Hw by lia. rewrite entries_walk_S by lia.
    destruct (level_end be b fuel l p bl) as [p'|]; cbn [obind] in *; [|discriminate].
    replace (i + 1 - 1) with (i - 1 + 1) by lia.
    apply (IH (i - 1) p' q q'); try lia; assumption.
Qed.

Lemma entry_start_next be b fuel d l bl pos i q q' :
  0 <= i -> (is_flat l = false -> i < Z.of_nat fuel) ->
  entry_start be b fuel d l bl pos i = Some q -> level_end be b fuel l q bl = Some q' ->
  entry_start be b fuel d l bl pos (i + 1) = Some q'.
Proof.
  unfold entry_start. intros Hi Hb Hq Hq'. destruct (is_flat l) eqn:Hfl.
  - destruct (is_flat_inv l Hfl) as [Hg Hd]. rewrite level_end_parts, Hg, Hd in Hq'.
    cbn in Hq'. injection Hq as <-. injection Hq' as <-. f_equal. lia.
  - apply (entries_walk_snoc be b fuel l bl fuel i _ q q'); auto.
Qed.

Lemma groups_end_entries be b fuel d cbl l rest pos g e :
  group_at be b d pos = Some g -> is_unsigned_ity (d_bl_t d) -> 0 <= d_size d ->
  fits (d_bl_t d) (gv_bl g) -> fits (d_n_t d) (gv_n g) ->
  (is_flat l = true -> d_size d + gv_n g * gv_bl g < 2 ^ 64) ->
  entry_start be b fuel d l (gv_bl g) pos (gv_n g) = Some e ->
  groups_end be b fuel (GCons d cbl l rest) pos = groups_end be b fuel rest e.
Proof.
  intros Hg Hu Hs Hfbl Hfn Hflat He. rewrite groups_end_at, Hg. cbn [obind].
  unfold entry_start in He. destruct (is_flat l); [|now rewrite He].
  injection He as <-. specialize (Hflat eq_refl).
  pose proof (bits_le_64 (d_bl_t d)). pose proof (bits_le_64 (d_n_t d)). unfold fits in *.
  rewrite flat_group_size_ok by (assumption || lia). cbn [obind]. f_equal. lia.
Qed.

Lemma over_datas_fst be : forall ds wds bg, fst (over_datas be ds wds bg) = enc_datas be ds wds.
Proof.
  induction ds as [|t ds IH]; intros [|p wds] bg; try reflexivity.
  rewrite over_datas_cons. cbn [fst enc_datas]. now rewrite IH.
Qed.

Section Script.
  Variables (be : bool) (m : message) (base L : Z).
  (* = [default_fuel] of every buffer of length [L] ([pref_fuel]) *)
  Local Notation fuel := (S (Z.to_nat L)).

  (* a buffer of the fixed length that starts with [p] *)
  Definition pref (p b' : list Z) : Prop := len b' = L /\ exists q, b' = p ++ q.

  Lemma pref_app p x b' : pref (p ++ x) b' -> pref p b'.
  Proof.
    intros [Hl [q Hq]]. split; [exact Hl|]. exists (x ++ q). rewrite Hq. now rewrite <- app_assoc.
  Qed.

  Lemma pref_self p q : len p + len q = L -> pref p (p ++ q).
  Proof. intros H. split; [rewrite len_app; exact H|]. exists q. reflexivity. Qed.

  Lemma pref_fuel p b' : pref p b' -> default_fuel b' = fuel.
  Proof. intros [Hl _]. unfold default_fuel, len in *. f_equal. lia. Qed.

  Lemma pref_seg p x b' : pref (p ++ x) b' -> seg b' (len p) x.
  Proof. intros [_ [q ->]]. rewrite <- app_assoc. apply seg_mid. Qed.

  Lemma pref_len p b' : pref p b' -> len p <= L.
  Proof. intros [<- [q ->]]. rewrite len_app. pose proof (len_nonneg q). lia. Qed.

  Section Fields.
    Variables (path : list step) (l : level) (cbl : Z) (pre : list Z).
    Hypothesis RES :
      forall b', pref pre b' -> msg_resolve be b' m base path = Some (len pre, cbl, l).

    Lemma exec_pieces k f : forall ps block rest,
      nth_error (level_fields l) k = Some f ->
      len pre + cbl + len rest = L -> len block = cbl ->
      0 <= f_off f -> f_off f + f_size f <= cbl -> pieces_ok (f_size f) ps ->
      exec_script be m base (pre ++ block ++ rest) (pieces_script path k ps)
      = Some (pre ++ put_pieces (f_off f) ps block ++ rest).
    Proof.
      induction ps as [|[o bs] r IH]; intros block rest Hk HL Hlb Ho Hle Hok;
        cbn [pieces_script exec_script put_pieces]; [reflexivity|].
      destruct Hok as (Ho' & Hole & Hr).
      cbn [exec_sop]. unfold set_piece.
      rewrite (RES _ (pref_self pre (block ++ rest) ltac:(rewrite len_app; lia))). cbn [obind].
      rewrite Hk.
      replace ((0 <=? o) && (o + len bs <=? f_size f)) with true
        by (symmetry; apply andb_true_iff; split; apply Z.leb_le; lia).
      assert (Hin : in_buf block (f_off f + o) (len bs) = true).
      { apply in_buf_iff. pose proof (len_nonneg bs). lia. }
      rewrite <- Z.add_assoc, wr_mid by exact Hin. cbn [obind].
      apply IH; try assumption. rewrite len_splice by exact Hin. exact Hlb.
    Qed.

    Lemma exec_fields : forall fv fs k0 block rest,
      (forall j, nth_error (level_fields l) (k0 + j) = nth_error fs j) ->
      fvals_ok cbl fs fv -> len pre + cbl + len rest = L -> len block = cbl ->
      exec_script be m base (pre ++ block ++ rest) (fields_script path k0 fv)
      = Some (pre ++ put_fields fs fv block ++ rest).
    Proof.
      induction fv as [|ps fv IH]; intros [|f fs] k0 block rest Hn Hok HL Hlb;
        cbn [fvals_ok] in Hok; try contradiction.
      - reflexivity.
      - destruct Hok as (Ho & Hle & Hp & Hr).
        cbn [fields_script put_fields]. rewrite exec_app.
        rewrite (exec_pieces k0 f ps block rest); try assumption.
        2:{ rewrite <- (Nat.add_0_r k0), Hn. reflexivity. }
        cbn [obind].
        assert (Hlp : len (put_pieces (f_off f) ps block) = len block)
          by (apply (len_put_pieces (f_off f) (f_size f)); [exact Ho|lia|exact Hp]).
        apply IH; try assumption.
        + intros j. rewrite (Nat.add_succ_comm k0 j). exact (Hn (S j)).
        + lia.
    Qed.
  End Fields.

  Lemma exec_datas path : forall wds ds k0 pre bg,
    (forall b', pref pre b' -> forall j,
        locate_data be b' m base path (k0 + j) = nth_data_pos be b' ds j (len pre)) ->
    wdatas_ok ds wds -> len pre + len bg = L -> wdatas_size ds wds <= len bg ->
    exec_script be m base (pre ++ bg) (datas_script path k0 wds)
    = Some (pre ++ fst (over_datas be ds wds bg) ++ snd (over_datas be ds wds bg)).
  Proof.
    induction wds as [|p wds IH]; intros [|t ds] k0 pre bg LOC Hok HL Hsz;
      cbn [wdatas_ok] in Hok; try contradiction; [reflexivity|].
    destruct Hok as (Hu & Hfit & Hr). cbn [wdatas_size] in Hsz.
    pose proof (tbytes_pos t) as Ht. pose proof (len_nonneg p) as Hp.
    pose proof (wdatas_size_nonneg ds wds) as Hd0.
    rewrite over_datas_cons. cbn [fst snd].
    set (E := enc be (tw t) (len p)). set (bg' := drop (tbytes t + len p) bg).
    assert (HlE : len E = tbytes t) by apply len_enc_tw.
    assert (Hstep : exec_sop be m base (pre ++ bg) (SData path k0 p) = Some ((pre ++ E ++ p) ++ bg')).
    { cbn [exec_sop]. unfold assign_data.
      rewrite <- (Nat.add_0_r k0), (LOC _ (pref_self pre bg HL) 0%nat).
      cbn [nth_data_pos obind]. fold E.
      rewrite (wr_head pre bg E) by lia. cbn [obind].
      rewrite <- HlE, <- len_app, app_assoc.
      rewrite (wr_head (pre ++ E) _ p) by (rewrite len_drop; lia).
      rewrite drop_drop, HlE by lia. now rewrite <- !app_assoc. }
    cbn [datas_script exec_script]. rewrite Hstep. cbn [obind].
    rewrite (IH ds (S k0) (pre ++ E ++ p) bg'); try assumption.
    - now rewrite <- !app_assoc.
    - intros b' Hb' j. rewrite (Nat.add_succ_comm k0 j).
      rewrite (LOC b' (pref_app _ _ _ Hb')). cbn [nth_data_pos].
      apply pref_seg, seg_app in Hb'. destruct Hb' as [Hs _].
      rewrite (seg_rd_enc be b' _ t _ Hs Hfit). cbn [obind].
      rewrite !len_app, HlE, Z.add_assoc. reflexivity.
    - rewrite !len_app, HlE. unfold bg'. rewrite len_drop by lia.
      lia.
    - unfold bg'. rewrite len_drop by lia. lia.
  Qed.

  (* the header of a group as the filler leaves it, on every buffer holding it *)
  Lemma group_at_filled d cbl n hdr pre b' :
    dim_fills_ok d -> fits (d_bl_t d) cbl -> fits (d_n_t d) n -> len hdr = d_size d ->
    pref (pre ++ put_fills be (d_fills d) cbl n hdr) b' ->
    group_at be b' d (len pre) = Some {| gv_pos := len pre; gv_bl := cbl; gv_n := n |}.
  Proof.
    intros (Hd & Hin & Hdis & HInbl & HInn & _) Hfbl Hfn Hl Hb'. apply pref_seg in Hb'.
    pose proof (len_put_fills be cbl n _ _ hdr Hl Hin) as Hlf. unfold group_at.
    rewrite (seg_rd be b' _ _ _ _ Hb' (wf_dim_in_bl d _ Hd Hlf)),
            (seg_rd be b' _ _ _ _ Hb' (wf_dim_in_n d _ Hd Hlf)).
    rewrite (dec_put_fills be cbl n _ _ _ FBlockLength _ _ Hl Hin Hdis HInbl Hfbl),
            (dec_put_fills be cbl n _ _ _ FNumInGroup _ _ Hl Hin Hdis HInn Hfn).
    reflexivity.
  Qed.

  (* The buffer is [pre], already written, followed by the background [bg].  If the
     runtime finds the level (the groups from index [k0] on) at [len pre] in EVERY
     buffer of length [L] that starts with [pre] -- so also after the writes to come --
     then the script overlays [bg] as [over_level] ([over_groups]) says, and in every
     buffer that starts with what is then written the runtime finds the end there. *)
  Definition PL (w : wlevel) : Prop :=
    forall path l cbl pre bg,
      (forall b', pref pre b' -> msg_resolve be b' m base path = Some (len pre, cbl, l)) ->
      wf_wlevel cbl l w -> len pre + len bg = L -> wlevel_size cbl l w <= len bg ->
      exec_script be m base (pre ++ bg) (level_script path w)
        = Some (pre ++ fst (over_level be l cbl w bg) ++ snd (over_level be l cbl w bg)) /\
      forall b', pref (pre ++ fst (over_level be l cbl w bg)) b' ->
        level_end be b' fuel l (len pre) cbl
        = Some (len (pre ++ fst (over_level be l cbl w bg))).

  Definition PG (wgs : wgroups) : Prop :=
    forall path gs k0 pre bg,
      (forall b', pref pre b' -> forall j,
          gloc be m base b' path (k0 + j) = nth_group_pos be b' fuel gs j (len pre)) ->
      wf_wgroups gs wgs -> len pre + len bg = L -> wgroups_size gs wgs <= len bg ->
      exec_script be m base (pre ++ bg) (groups_script path k0 wgs)
        = Some (pre ++ fst (over_groups be gs wgs bg) ++ snd (over_groups be gs wgs bg)) /\
      forall b', pref (pre ++ fst (over_groups be gs wgs bg)) b' ->
        groups_end be b' fuel gs (len pre)
        = Some (len (pre ++ fst (over_groups be gs wgs bg))).

  (* entries [i0 ..] of the group [k] of the level at [path]: the group is
     located at [gp] with the header values [cbl], [n], and entry [i0] starts
     at the end of what is written *)
  Definition PE (es : wentries) : Prop :=
    forall path k d cbl sub gp n i0 pre bg,
      (forall b', pref pre b' ->
         gloc be m base b' path k = Some (gp, d, cbl, sub) /\
         group_at be b' d gp = Some {| gv_pos := gp; gv_bl := cbl; gv_n := n |} /\
         entry_start be b' fuel d sub cbl gp i0 = Some (len pre)) ->
      (is_flat sub = false -> i0 <= len pre) ->
      0 <= i0 -> i0 + wecount es = n ->
      wf_wentries cbl sub es -> len pre + len bg = L -> wentries_size cbl sub es <= len bg ->
      exec_script be m base (pre ++ bg) (entries_script path k i0 es)
        = Some (pre ++ fst (over_entries be sub cbl es bg) ++ snd (over_entries be sub cbl es bg)) /\
      forall b', pref (pre ++ fst (over_entries be sub cbl es bg)) b' ->
        entry_start be b' fuel d sub cbl gp n
        = Some (len (pre ++ fst (over_entries be sub cbl es bg))).

  Lemma PE_nil : PE WENil.
  Proof.
    intros path k d cbl sub gp n i0 pre bg GL _ Hi0 Hn Hwf HL Hsz.
    cbn [wecount] in Hn. assert (i0 = n) by lia. subst i0.
    cbn [entries_script exec_script over_entries fst snd app]. split; [reflexivity|].
    rewrite app_nil_r. intros b' Hb'. apply (GL b' Hb').
  Qed.

  Lemma PE_step e r : PL e -> PE r -> PE (WECons e r).
  Proof.
    intros IHl IHr path k d cbl sub gp n i0 pre bg GL Hnest Hi0 Hn [He Hr] HL Hsz.
    cbn [wentries_size wecount] in *.
    pose proof (proj1 sizes_nonneg _ _ _ He) as He0.
    pose proof (proj2 (proj2 sizes_nonneg) _ _ _ Hr) as Hr0.
    pose proof (wecount_nonneg r) as Hc0.
    pose proof (pref_len _ _ (pref_self pre bg HL)) as Hpre.
    assert (Hcbl : 0 <= cbl) by (destruct e; cbn [wf_wlevel] in He; tauto).
    rewrite over_entries_cons. cbn [fst snd].
    set (E1 := over_level be sub cbl e bg).
    set (R := over_entries be sub cbl r (snd E1)).
    destruct (proj1 (over_lens be) e cbl sub bg He ltac:(lia)) as [L1 L2]. fold E1 in L1, L2.
    (* the entry is resolved at the end of what is written *)
    destruct (IHl (path ++ [SGroup k i0]) sub cbl pre bg) as [X1 N1]; [|exact He|exact HL|lia|].
    { intros b' Hb'. destruct (GL b' Hb') as (G1 & G2 & G3).
      rewrite msg_resolve_snoc, G1. cbn [obind]. rewrite G2. cbn [obind].
      rewrite (pref_fuel _ _ Hb'), entry_pos_start by (cbn [gv_n]; lia).
      cbn [gv_bl gv_pos]. now rewrite G3. }
    fold E1 in X1, N1.
    destruct (IHr path k d cbl sub gp n (i0 + 1) (pre ++ fst E1) (snd E1)) as [X2 N2];
      [| |lia|lia|exact Hr| |lia|].
    - intros b' Hb'. destruct (GL b' (pref_app _ _ _ Hb')) as (G1 & G2 & G3).
      repeat split; try assumption.
      apply (entry_start_next be b' fuel d sub cbl gp i0 (len pre)); auto.
      intros Hfl. specialize (Hnest Hfl). pose proof (len_nonneg pre).
      rewrite Nat2Z.inj_succ, Z2Nat.id; lia.
    - (* a nested entry occupies at least one byte *)
      intros Hfl. pose proof (wlevel_size_nested cbl sub e He Hfl). specialize (Hnest Hfl).
      rewrite len_app, L1. lia.
    - rewrite len_app. lia.
    - fold R in X2, N2. split.
      + cbn [entries_script]. rewrite exec_app, X1. cbn [obind].
        rewrite app_assoc, X2. now rewrite <- !app_assoc.
      + intros b' Hb'. rewrite app_assoc in Hb' |- *. exact (N2 b' Hb').
  Qed.

  Lemma PG_nil : PG WGNil.
  Proof.
    intros path gs k0 pre bg SK Hwf HL Hsz. destruct gs; [|contradiction].
    cbn [groups_script exec_script over_groups fst snd app groups_end]. split; [reflexivity|].
    intros b' _. now rewrite app_nil_r.
  Qed.

  Lemma PG_step es wrest : PE es -> PG wrest -> PG (WGCons es wrest).
  Proof.
    intros IHe IHr path gs k0 pre bg SK Hwf HL Hsz.
    destruct gs as [|d cbl sub rest]; [contradiction|].
    destruct Hwf as (Hdf & Hfbl & Hfn & Hflat & He & Hr). pose proof Hdf as (Hd & Hinside & _).
    cbn [wgroups_size] in Hsz. set (n := wecount es) in *.
    pose proof (wecount_nonneg es) as Hn0. fold n in Hn0.
    pose proof (wf_dim_size_pos d Hd) as Hs1.
    pose proof (proj2 (proj2 sizes_nonneg) _ _ _ He) as He0.
    pose proof (proj1 (proj2 sizes_nonneg) _ _ Hr) as Hr0.
    rewrite over_groups_cons. cbn [fst snd]. fold n.
    set (dimb := put_fills be (d_fills d) cbl n (take (d_size d) bg)).
    set (E := over_entries be sub cbl es (drop (d_size d) bg)).
    set (R := over_groups be rest wrest (snd E)).
    assert (Hlt : len (take (d_size d) bg) = d_size d) by (apply len_take; lia).
    assert (Hldimb : len dimb = d_size d) by (apply len_put_fills; assumption).
    assert (Hldr : len (drop (d_size d) bg) = len bg - d_size d) by (apply len_drop; lia).
    destruct (proj2 (proj2 (over_lens be)) es cbl sub (drop (d_size d) bg) He ltac:(lia))
      as [E1 E2].
    fold E in E1, E2.
    (* the group is located on every buffer that holds its filled header *)
    assert (GA : forall b', pref (pre ++ dimb) b' ->
              gloc be m base b' path k0 = Some (len pre, d, cbl, sub) /\
              group_at be b' d (len pre)
              = Some {| gv_pos := len pre; gv_bl := cbl; gv_n := n |}).
    { intros b' Hb'. split; [|exact (group_at_filled d cbl n _ pre b' Hdf Hfbl Hfn Hlt Hb')].
      rewrite <- (Nat.add_0_r k0), (SK b' (pref_app _ _ _ Hb') 0%nat). reflexivity. }
    (* 1. the header fill *)
    assert (H1 : exec_sop be m base (pre ++ bg) (SGFill path k0 n)
                 = Some ((pre ++ dimb) ++ drop (d_size d) bg)).
    { cbn [exec_sop].
      rewrite group_fill_header_gloc, <- (Nat.add_0_r k0), (SK _ (pref_self pre bg HL) 0%nat).
      cbn [nth_group_pos obind].
      rewrite (do_fills_head be pre bg cbl n (d_size d)) by (exact Hinside || lia).
      now rewrite app_assoc. }
    (* 2. the entries *)
    destruct (IHe path k0 d cbl sub (len pre) n 0 (pre ++ dimb) (drop (d_size d) bg))
      as [H2 N2]; [| |reflexivity|reflexivity|exact He| |clear - Hsz Hldr Hr0; lia|].
    { intros b' Hb'. destruct (GA b' Hb') as [G1 G2]. repeat split; try assumption.
      unfold entry_start. rewrite entries_walk_0, len_app, Hldimb.
      clear. destruct (is_flat sub); f_equal; lia. }
    { intros _. apply len_nonneg. }
    { rewrite len_app. clear - HL Hldimb Hldr. lia. }
    fold E in H2, N2.
    (* the whole group is skipped from its header values *)
    assert (Hone : forall b', pref ((pre ++ dimb) ++ fst E) b' -> forall X,
              groups_end be b' fuel (GCons d cbl sub X) (len pre)
              = groups_end be b' fuel X (len ((pre ++ dimb) ++ fst E))).
    { intros b' Hb' X. destruct (GA b' (pref_app _ _ _ Hb')) as [_ G2].
      apply (groups_end_entries be b' fuel d cbl sub X _ _ _ G2); cbn [gv_bl gv_n];
        try assumption; [apply Hd|clear - Hs1; lia|apply N2, Hb']. }
    (* 3. the remaining groups *)
    destruct (IHr path rest (S k0) ((pre ++ dimb) ++ fst E) (snd E)) as [H3 N3]; try exact Hr.
    { intros b' Hb' j. rewrite (Nat.add_succ_comm k0 j).
      rewrite (SK b' (pref_app _ _ _ (pref_app _ _ _ Hb'))). cbn [nth_group_pos].
      now rewrite (Hone b' Hb' GNil). }
    { rewrite !len_app. clear - HL Hldimb Hldr E1 E2. lia. }
    { rewrite E2. clear - Hsz Hldr. lia. }
    fold R in H3, N3. split.
    - cbn [groups_script exec_script]. fold n. rewrite H1. cbn [obind].
      rewrite exec_app, H2. cbn [obind]. rewrite app_assoc, H3. now rewrite <- !app_assoc.
    - intros b' Hb'. rewrite !app_assoc in Hb' |- *.
      rewrite (Hone b' (pref_app _ _ _ Hb') rest). exact (N3 b' Hb').
  Qed.

  Lemma PL_step fv wgs wds : PG wgs -> PL (WLevel fv wgs wds).
  Proof.
    intros IHg path l cbl pre bg RES (Hc & Hf & Hg & Hd) HL Hsz.
    cbn [wlevel_size] in Hsz.
    pose proof (proj1 (proj2 sizes_nonneg) _ _ Hg) as Hg0.
    pose proof (wdatas_size_nonneg (level_datas l) wds) as Hd0.
    rewrite over_level_eq. cbn [fst snd].
    set (block := put_fields (level_fields l) fv (take cbl bg)).
    set (G := over_groups be (level_groups l) wgs (drop cbl bg)).
    set (D := over_datas be (level_datas l) wds (snd G)).
    assert (Hlt : len (take cbl bg) = cbl) by (apply len_take; lia).
    assert (Hlb : len block = cbl) by (apply (len_put_fields cbl); assumption).
    assert (Hldr : len (drop cbl bg) = len bg - cbl) by (apply len_drop; lia).
    destruct (proj1 (proj2 (over_lens be)) wgs (level_groups l) (drop cbl bg) Hg ltac:(lia))
      as [G1 G2]. fold G in G1, G2.
    (* 1. fields *)
    pose proof (exec_fields path l cbl pre RES fv (level_fields l) 0%nat (take cbl bg)
                  (drop cbl bg) (fun j => eq_refl) Hf ltac:(lia) Hlt) as H1.
    rewrite take_drop, app_assoc in H1. fold block in H1.
    (* 2. groups *)
    destruct (IHg path (level_groups l) 0%nat (pre ++ block) (drop cbl bg)) as [H2 N2];
      [|exact Hg| |lia|].
    { intros b' Hb' j. unfold gloc. rewrite (RES b' (pref_app _ _ _ Hb')). cbn [obind].
      rewrite (pref_fuel _ _ Hb'), len_app, Hlb. reflexivity. }
    { rewrite len_app. lia. }
    fold G in H2, N2.
    (* 3. data, located after the groups *)
    assert (H3 : exec_script be m base (((pre ++ block) ++ fst G) ++ snd G)
                   (datas_script path 0 wds)
                 = Some (((pre ++ block) ++ fst G) ++ fst D ++ snd D)).
    { apply (exec_datas path wds (level_datas l) 0%nat); try exact Hd.
      - intros b' Hb' j. unfold locate_data.
        rewrite (RES b' (pref_app _ _ _ (pref_app _ _ _ Hb'))). cbn [obind].
        rewrite (pref_fuel _ _ Hb').
        replace (len pre + cbl) with (len (pre ++ block)) by (rewrite len_app; lia).
        now rewrite (N2 b' Hb').
      - rewrite !len_app. lia.
      - rewrite G2. lia. }
    split.
    - cbn [level_script]. rewrite exec_app, H1. cbn [obind].
      rewrite exec_app, H2. cbn [obind]. rewrite app_assoc, H3. now rewrite <- !app_assoc.
    - intros b' Hb'. rewrite !app_assoc in Hb' |- *. rewrite level_end_parts.
      replace (len pre + cbl) with (len (pre ++ block)) by (rewrite len_app; lia).
      rewrite (N2 b' (pref_app _ _ _ Hb')). cbn [obind].
      unfold D in Hb' |- *. rewrite over_datas_fst in Hb' |- *.
      (* [wdatas_ok] and [datas_fit] are the same fixpoint under two names *)
      rewrite (datas_end_seg be _ _ b' _ (Hd : datas_fit _ wds) (pref_seg _ _ _ Hb')).
      now rewrite <- len_app.
  Qed.

  Lemma script_all : (forall w, PL w) /\ (forall wgs, PG wgs) /\ (forall es, PE es).
  Proof.
    apply wtree_mutind.
    - intros fv wgs IHg wds. apply PL_step, IHg.
    - exact PG_nil.
    - intros es IHe wrest IHr. apply PG_step; assumption.
    - exact PE_nil.
    - intros e IHl r IHr. apply PE_step; assumption.
  Qed.
End Script.

(* the script run through a view that starts anywhere in a larger buffer:
   the bytes [pre0] before the view stay as they are *)
Theorem encode_script_image_at be m w pre0 bg :
  msg_fills_ok m -> wf_wlevel (m_cbl m) (m_level m) w ->
  m_hdr_size m + wlevel_size (m_cbl m) (m_level m) w <= len bg ->
  exec_script be m (len pre0) (pre0 ++ bg) (message_script w)
  = Some (pre0 ++ over_message be m w bg).
Proof.
  intros Hmf Hwf Hsz.
  destruct Hmf as (Hu & Hbo & Hbe & Hinside & Hdisj & HIn & Hfit & _).
  pose proof (tbytes_pos (m_bl_t m)) as Ht.
  pose proof (proj1 sizes_nonneg _ _ _ Hwf) as Hw0.
  assert (Hcbl : 0 <= m_cbl m) by (destruct w; cbn [wf_wlevel] in Hwf; tauto).
  set (hsz := m_hdr_size m) in *.
  set (hdr := put_fills be (m_fills m) (m_cbl m) 0 (take hsz bg)).
  assert (Hlt : len (take hsz bg) = hsz) by (apply len_take; lia).
  assert (Hlh : len hdr = hsz) by (apply len_put_fills; assumption).
  (* the header fill *)
  assert (H1 : exec_sop be m (len pre0) (pre0 ++ bg) SFillHdr = Some (pre0 ++ hdr ++ drop hsz bg)).
  { exact (do_fills_head be pre0 bg (m_cbl m) 0 hsz (m_fills m) ltac:(lia) Hinside). }
  (* the root level is resolved from the filled header *)
  assert (RES : forall b', pref (len pre0 + len bg) (pre0 ++ hdr) b' ->
            msg_resolve be b' m (len pre0) [] = Some (len (pre0 ++ hdr), m_cbl m, m_level m)).
  { intros b' Hb'. pose proof (pref_seg _ pre0 hdr _ Hb') as Hs.
    unfold msg_resolve, msg_block_length.
    rewrite (seg_rd be b' _ _ _ _ Hs) by (apply in_buf_iff; lia). unfold hdr at 1.
    rewrite (dec_put_fills be (m_cbl m) 0 hsz _ _ FBlockLength _ _ Hlt Hinside Hdisj HIn Hfit).
    cbn [obind resolve fill_value]. now rewrite len_app, Hlh. }
  destruct (proj1 (script_all be m (len pre0) _) w [] (m_level m) (m_cbl m) (pre0 ++ hdr)
              (drop hsz bg) RES Hwf) as [H2 _].
  { rewrite len_app, Hlh, len_drop; lia. }
  { rewrite len_drop; lia. }
  unfold message_script. cbn [exec_script]. rewrite H1. cbn [obind]. rewrite app_assoc, H2.
  rewrite <- app_assoc. do 2 f_equal. unfold over_message. fold hsz. fold hdr.
  destruct (over_level be (m_level m) (m_cbl m) w (drop hsz bg)) as [li rest]. reflexivity.
Qed.

(* [bytes_ok bg] and [len bg < 2 ^ 63] of the statement are not needed *)
Theorem encode_script_image : stmt_encode_script_image.
Proof.
  intros be m w bg Hmf Hwf _ Hsz _. exact (encode_script_image_at be m w [] bg Hmf Hwf Hsz).
Qed.
Print Assumptions encode_script_image.
