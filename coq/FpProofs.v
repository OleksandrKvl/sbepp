(* FpProofs.v — facts about Fp.v: the cheap comparison key used by the model
   (biased exponent and mantissa in lexicographic order) orders bit patterns
   exactly like the real numbers they denote ([fscaled], the exact value scaled
   by 2^(bias + mbits)). *)
From Coq Require Import ZArith Bool Lia.
From Sbepp Require Import Fp.
Import IEEE.
Local Open Scope Z_scope.

Lemma mbits_pos f : 0 < mbits f.
Proof. destruct f; reflexivity. Qed.

Lemma ebits_pos f : 0 < ebits f.
Proof. destruct f; reflexivity. Qed.

Lemma mod_pow2_range b n : 0 <= n -> 0 <= b mod 2 ^ n < 2 ^ n.
Proof. intros Hn. apply Z.mod_pos_bound, Z.pow_pos_nonneg; lia. Qed.

Lemma fman_range f b : 0 <= fman f b < 2 ^ mbits f.
Proof. apply mod_pow2_range. pose proof (mbits_pos f). lia. Qed.

Lemma fexp_range f b : 0 <= fexp f b < 2 ^ ebits f.
Proof. apply mod_pow2_range. pose proof (ebits_pos f). lia. Qed.

Lemma fmag_nonneg f a : 0 <= fmag f a.
Proof.
  apply mod_pow2_range. unfold fbits.
  pose proof (mbits_pos f). pose proof (ebits_pos f). lia.
Qed.

Lemma fmag_decomp f b : fmag f b = fexp f b * 2 ^ mbits f + fman f b.
Proof.
  unfold fmag, fexp, fman, fbits.
  pose proof (mbits_pos f) as Hm. pose proof (ebits_pos f) as He.
  replace (1 + ebits f + mbits f - 1) with (mbits f + ebits f) by lia.
  rewrite Z.pow_add_r by lia.
  assert (H1 : 0 < 2 ^ mbits f) by (apply Z.pow_pos_nonneg; lia).
  assert (H2 : 0 < 2 ^ ebits f) by (apply Z.pow_pos_nonneg; lia).
  rewrite Z.rem_mul_r by lia. lia.
Qed.

Lemma compare_mono x y x' y' :
  (x < y -> x' < y') -> (y < x -> y' < x') -> (x = y -> x' = y') ->
  (x ?= y) = (x' ?= y').
Proof.
  intros L G E. symmetry.
  destruct (Z.compare_spec x y) as [H|H|H].
  - apply Z.compare_eq_iff, E, H.
  - apply Z.compare_lt_iff, L, H.
  - apply Z.compare_gt_iff, G, H.
Qed.

(* Comparing a non-positive with a non-negative number only asks which of the
   two are zero. *)
Lemma cmp_neg_pos x y x' y' :
  0 <= x -> 0 <= y -> 0 <= x' -> 0 <= y' ->
  (x = 0 <-> x' = 0) -> (y = 0 <-> y' = 0) ->
  (- x ?= y) = (- x' ?= y').
Proof. intros. apply compare_mono; lia. Qed.

(* the scaled value as a function of exponent and mantissa *)
Definition sc (M e m : Z) : Z := if e =? 0 then 2 * m else (M + m) * 2 ^ e.

Lemma fscaled_sc f b : fscaled f b = sc (2 ^ mbits f) (fexp f b) (fman f b).
Proof. reflexivity. Qed.

(* [sc M] is strictly increasing in the exponent: the largest value with
   exponent e1 is below (M + M) * 2^e1 = M * 2^(e1+1), the smallest with a
   larger exponent e2 is at least M * 2^e2. *)
Lemma sc_lt_exp M e1 m1 e2 m2 :
  0 <= e1 < e2 -> 0 <= m1 < M -> 0 <= m2 < M -> sc M e1 m1 < sc M e2 m2.
Proof.
  intros He H1 H2. unfold sc.
  assert (P2 : 2 * 2 ^ e1 <= 2 ^ e2).
  { rewrite <- Z.pow_succ_r by lia. apply Z.pow_le_mono_r; lia. }
  assert (P1 : 0 < 2 ^ e1) by (apply Z.pow_pos_nonneg; lia).
  destruct (Z.eqb_spec e2 0); [lia|].
  destruct (Z.eqb_spec e1 0) as [->|_]; [cbn in P2|]; nia.
Qed.

Lemma sc_lt_man M e m1 m2 : 0 <= e -> 0 <= M -> m1 < m2 -> sc M e m1 < sc M e m2.
Proof.
  intros He HM H. unfold sc.
  assert (P : 0 < 2 ^ e) by (apply Z.pow_pos_nonneg; lia).
  destruct (e =? 0); nia.
Qed.

(* hence [sc M] is strictly increasing in (e, m) ordered lexicographically,
   which is the order of e * M + m *)
Lemma sc_lt M e1 m1 e2 m2 :
  0 <= e1 -> 0 <= e2 -> 0 <= m1 < M -> 0 <= m2 < M ->
  e1 * M + m1 < e2 * M + m2 -> sc M e1 m1 < sc M e2 m2.
Proof.
  intros He1 He2 H1 H2 H.
  assert (C : e1 < e2 \/ e1 = e2 /\ m1 < m2) by nia.
  destruct C as [C|[-> C]]; [apply sc_lt_exp | apply sc_lt_man]; lia.
Qed.

Lemma sc_order M e1 m1 e2 m2 :
  0 <= e1 -> 0 <= e2 -> 0 <= m1 < M -> 0 <= m2 < M ->
  (e1 * M + m1 ?= e2 * M + m2) = (sc M e1 m1 ?= sc M e2 m2).
Proof.
  intros He1 He2 H1 H2.
  apply compare_mono; try (apply sc_lt; assumption).
  intros E.
  assert (e1 = e2 /\ m1 = m2) as [-> ->] by (apply (Z.div_mod_unique M); lia).
  reflexivity.
Qed.

Lemma fmag_order f a b : (fmag f a ?= fmag f b) = (fscaled f a ?= fscaled f b).
Proof.
  rewrite !fmag_decomp, !fscaled_sc.
  apply sc_order; try apply fman_range; apply fexp_range.
Qed.

Lemma fmag_0 f : fmag f 0 = 0.
Proof. destruct f; reflexivity. Qed.

Lemma fscaled_0 f : fscaled f 0 = 0.
Proof. destruct f; reflexivity. Qed.

Lemma fmag_order_0 f a : (fmag f a ?= 0) = (fscaled f a ?= 0).
Proof. pose proof (fmag_order f a 0) as H. rewrite fmag_0, fscaled_0 in H. exact H. Qed.

Lemma fmag_zero_iff f a : fmag f a = 0 <-> fscaled f a = 0.
Proof. rewrite <- !Z.compare_eq_iff, fmag_order_0. reflexivity. Qed.

Lemma fscaled_nonneg f a : 0 <= fscaled f a.
Proof.
  rewrite fscaled_sc. unfold sc. pose proof (fman_range f a). pose proof (fexp_range f a).
  destruct (_ =? 0); [lia|]. apply Z.mul_nonneg_nonneg; [lia|apply Z.pow_nonneg; lia].
Qed.

(* the order on keys is the order on (scaled) real values, for ALL patterns *)
Theorem fkey_order_is_real_order f a b :
  (fkey f a ?= fkey f b) = (fkey_real f a ?= fkey_real f b).
Proof.
  unfold fkey, fkey_real.
  pose proof (fmag_nonneg f) as M. pose proof (fscaled_nonneg f) as S.
  pose proof (fmag_zero_iff f) as Z.
  destruct (fsign f a), (fsign f b).
  - rewrite !Z.compare_opp. apply fmag_order.
  - apply cmp_neg_pos; trivial.
  - rewrite (Z.compare_antisym _ (fmag f a)), (Z.compare_antisym _ (fscaled f a)).
    f_equal. apply cmp_neg_pos; trivial.
  - apply fmag_order.
Qed.

Lemma fcompare_refl f a : fcompare f a a = if is_nan f a then FUn else FEq.
Proof.
  unfold fcompare. destruct (is_nan f a); cbn; [reflexivity|].
  rewrite Z.compare_refl. reflexivity.
Qed.

Lemma fcompare_sym f a b :
  fcompare f b a = match fcompare f a b with FLt => FGt | FGt => FLt | c => c end.
Proof.
  unfold fcompare. rewrite (orb_comm (is_nan f b)).
  destruct (is_nan f a || is_nan f b); [reflexivity|].
  rewrite (Z.compare_antisym (fkey f a) (fkey f b)).
  destruct (fkey f a ?= fkey f b); reflexivity.
Qed.

Example fcompare_zeros :
  fcompare F32 0 (2 ^ 31) = FEq /\ fcompare F64 (2 ^ 63) 0 = FEq /\
  fcompare F32 (fneg F32 (fl_inf F32)) (fneg F32 (fl_max F32)) = FLt /\
  fcompare F64 (fl_max F64) (fl_inf F64) = FLt /\
  fcompare F32 1 (fl_min F32) = FLt /\          (* denorm_min < min normal *)
  fcompare F32 (fl_qnan F32) (fl_qnan F32) = FUn.
Proof. vm_compute. repeat split; reflexivity. Qed.

Example fkey_order_is_real_order_nonvacuous :
  (* 1.5 vs 2^100 in binary32, -denorm_min vs +0, -inf vs lowest in binary64 *)
  (fkey F32 1069547520 ?= fkey F32 1900544000) = Lt /\
  (fkey_real F32 1069547520 ?= fkey_real F32 1900544000) = Lt /\
  (fkey F32 (2 ^ 31 + 1) ?= fkey F32 0) = Lt /\
  (fkey_real F32 (2 ^ 31 + 1) ?= fkey_real F32 0) = Lt /\
  (fkey F64 (fneg F64 (fl_inf F64)) ?= fkey F64 (fneg F64 (fl_max F64))) = Lt /\
  (fkey_real F64 (fneg F64 (fl_inf F64)) ?= fkey_real F64 (fneg F64 (fl_max F64))) = Lt.
Proof. repeat apply conj; vm_compute; reflexivity. Qed.
