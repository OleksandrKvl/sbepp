(* FillProofs.v — C17: the header fillers write exactly the listed members
   (statements in ScriptSpec.v). *)
From Coq Require Import ZArith List Bool Lia.
From Sbepp Require Import CInt CIntFacts Bytes BytesFacts Msg Layout Wire MsgSpec LayoutProofs
  MsgProofs Cursor CursorSpec Checked ScriptSpec.
Import ListNotations.
Local Open Scope Z_scope.

Lemma splice_slice_id b pos n : in_buf b pos n = true -> splice b pos (slice b pos n) = b.
Proof. apply BytesFacts.splice_slice_id. Qed.

Lemma take_drop n l : take n l ++ drop n l = l.
Proof. apply firstn_skipn. Qed.

Lemma len_take n l : 0 <= n <= len l -> len (take n l) = n.
Proof. intros H. unfold take, len in *. rewrite firstn_length. lia. Qed.

Lemma len_drop n l : 0 <= n <= len l -> len (drop n l) = len l - n.
Proof. intros H. unfold drop, len in *. rewrite skipn_length. lia. Qed.

Lemma drop_drop a c l : 0 <= a -> 0 <= c -> drop c (drop a l) = drop (a + c) l.
Proof.
  intros Ha Hc. unfold drop. rewrite <- skipn_add. f_equal. lia.
Qed.

Lemma wr_head pre bg bs : len bs <= len bg ->
  wr (pre ++ bg) (len pre) bs = Some (pre ++ bs ++ drop (len bs) bg).
Proof.
  intros H. pose proof (len_nonneg bs). pose proof (len_nonneg pre).
  pose proof (len_take (len bs) bg ltac:(lia)) as Hl.
  unfold wr. rewrite (proj2 (in_buf_iff _ _ _)) by (rewrite len_app; lia).
  rewrite <- (take_drop (len bs) bg) at 1.
  now rewrite splice_app_mid by (apply Nat2Z.inj; symmetry; exact Hl).
Qed.

Lemma fills_inside_In hsz off t v : forall fills,
  fills_inside hsz fills -> In (off, t, v) fills -> 0 <= off /\ off + tbytes t <= hsz.
Proof.
  induction fills as [|[[o2 t2] v2] rest IH]; intros Hin HIn; [contradiction|].
  destruct Hin as (Ho2 & Hle2 & Hrest).
  destruct HIn as [Heq|HIn]; [inversion Heq; subst; split; assumption|apply IH; assumption].
Qed.

Lemma len_put_fills be cbl n hsz : forall fills hdr,
  len hdr = hsz -> fills_inside hsz fills -> len (put_fills be fills cbl n hdr) = hsz.
Proof.
  induction fills as [|[[off t] v] rest IH]; intros hdr Hl Hin; cbn [put_fills].
  - exact Hl.
  - cbn [fills_inside] in Hin. destruct Hin as (Ho & Hle & Hrest).
    apply IH; [|exact Hrest].
    rewrite len_put; [exact Hl|]. eapply in_buf_member; eassumption.
Qed.

(* the filler on a presented buffer *)
Lemma do_fills_pres be pre post cbl n hsz : forall fills mid,
  len mid = hsz -> fills_inside hsz fills ->
  do_fills be (pre ++ mid ++ post) (len pre) fills cbl n
  = Some (pre ++ put_fills be fills cbl n mid ++ post).
Proof.
  induction fills as [|[[off t] v] rest IH]; intros mid Hl Hin; cbn [do_fills put_fills].
  - reflexivity.
  - cbn [fills_inside] in Hin. destruct Hin as (Ho & Hle & Hrest).
    assert (Hib : in_buf mid off (tbytes t) = true) by (eapply in_buf_member; eassumption).
    rewrite wr_mid by (rewrite len_enc_tw; exact Hib). cbn [obind].
    fold (put be mid off t (fill_value cbl n v)).
    apply IH; [|exact Hrest]. rewrite len_put; [exact Hl|exact Hib].
Qed.

Lemma do_fills_head be pre bg cbl n hsz fills :
  0 <= hsz <= len bg -> fills_inside hsz fills ->
  do_fills be (pre ++ bg) (len pre) fills cbl n
  = Some (pre ++ put_fills be fills cbl n (take hsz bg) ++ drop hsz bg).
Proof.
  intros Hl Hin. rewrite <- (take_drop hsz bg) at 1.
  apply (do_fills_pres be pre _ cbl n hsz); [apply len_take; exact Hl|exact Hin].
Qed.

Theorem do_fills_spec : stmt_do_fills_spec.
Proof.
  unfold stmt_do_fills_spec. intros be b pos hsz fills cbl n Hin Hb.
  destruct (buf_split b pos hsz Hb) as (pre & mid & post & -> & <- & <-).
  rewrite slice_app_mid.
  rewrite (do_fills_pres be pre post cbl n (len mid) fills mid eq_refl Hin).
  f_equal. symmetry. apply splice_app_mid.
  pose proof (len_put_fills be cbl n (len mid) fills mid eq_refl Hin) as H.
  unfold len in H. lia.
Qed.
Print Assumptions do_fills_spec.

Theorem do_fills_frame : stmt_do_fills_frame.
Proof.
  unfold stmt_do_fills_frame. intros be b pos hsz fills cbl n b' Hin Hb H.
  rewrite (do_fills_spec be b pos hsz fills cbl n Hin Hb) in H.
  inversion H; subst b'; clear H.
  pose proof Hb as Hb'. apply in_buf_iff in Hb'. destruct Hb' as (Hp & Hn & Hle).
  assert (Hl : len (put_fills be fills cbl n (slice b pos hsz)) = hsz).
  { apply len_put_fills; [|exact Hin]. apply len_slice, Hb. }
  assert (Hib : in_buf b pos (len (put_fills be fills cbl n (slice b pos hsz))) = true)
    by (rewrite Hl; exact Hb).
  split; [apply len_splice; exact Hib|].
  intros i Hi. apply nth_splice_other; [exact Hib|].
  unfold len in Hl. destruct Hi as [Hi|Hi]; [left; exact Hi|right]. lia.
Qed.
Print Assumptions do_fills_frame.

(* members that no later assignment overlaps keep their bytes *)
Lemma put_fills_other be cbl n hsz off t : forall fills hdr,
  len hdr = hsz -> fills_inside hsz fills -> 0 <= off -> off + tbytes t <= hsz ->
  Forall (fun x => let '(o2, t2, _) := x in off + tbytes t <= o2 \/ o2 + tbytes t2 <= off) fills ->
  slice (put_fills be fills cbl n hdr) off (tbytes t) = slice hdr off (tbytes t).
Proof.
  induction fills as [|[[o2 t2] v2] rest IH]; intros hdr Hl Hin Ho Hle Hd; cbn [put_fills].
  - reflexivity.
  - cbn [fills_inside] in Hin. destruct Hin as (Ho2 & Hle2 & Hrest).
    inversion Hd as [|x r Hd1 Hdr]; subst x r.
    assert (Hib2 : in_buf hdr o2 (tbytes t2) = true) by (eapply in_buf_member; eassumption).
    assert (Hib : in_buf hdr off (tbytes t) = true) by (eapply in_buf_member; eassumption).
    rewrite IH; try assumption.
    + apply slice_put_other; assumption.
    + rewrite len_put; assumption.
Qed.

Lemma put_fills_value be cbl n hsz off t v : forall fills hdr,
  len hdr = hsz -> fills_inside hsz fills -> fills_disjoint fills ->
  In (off, t, v) fills ->
  slice (put_fills be fills cbl n hdr) off (tbytes t) = enc be (tw t) (fill_value cbl n v).
Proof.
  induction fills as [|[[o2 t2] v2] rest IH]; intros hdr Hl Hin Hdis HIn; [contradiction|].
  cbn [put_fills]. cbn [fills_inside] in Hin. destruct Hin as (Ho2 & Hle2 & Hrest).
  cbn [fills_disjoint] in Hdis. destruct Hdis as (Hd1 & Hdr).
  assert (Hib2 : in_buf hdr o2 (tbytes t2) = true) by (eapply in_buf_member; eassumption).
  assert (Hl' : len (put be hdr o2 t2 (fill_value cbl n v2)) = hsz) by (rewrite len_put; assumption).
  destruct HIn as [Heq|HIn].
  - inversion Heq; subst o2 t2 v2; clear Heq.
    rewrite (put_fills_other be cbl n hsz off t rest _ Hl' Hrest Ho2 Hle2 Hd1).
    apply slice_put_same. exact Hib2.
  - apply IH; assumption.
Qed.

Lemma dec_put_fills be cbl n hsz off t v fills hdr :
  len hdr = hsz -> fills_inside hsz fills -> fills_disjoint fills -> In (off, t, v) fills ->
  fits t (fill_value cbl n v) ->
  dec be (slice (put_fills be fills cbl n hdr) off (tbytes t)) = fill_value cbl n v.
Proof.
  intros Hl Hin Hdis HIn Hfit.
  rewrite (put_fills_value be cbl n hsz off t v fills hdr Hl Hin Hdis HIn).
  apply dec_enc_fits, Hfit.
Qed.

Lemma do_fills_value_one be b pos hsz fills cbl n b' off t v :
  fills_inside hsz fills -> fills_disjoint fills -> in_buf b pos hsz = true ->
  fits t (fill_value cbl n v) ->
  do_fills be b pos fills cbl n = Some b' -> In (off, t, v) fills ->
  rd be b' (pos + off) t = Some (fill_value cbl n v).
Proof.
  intros Hin Hdis Hb Hfit H HIn.
  destruct (buf_split b pos hsz Hb) as (pre & mid & post & -> & <- & <-).
  rewrite (do_fills_pres be pre post cbl n (len mid) fills mid eq_refl Hin) in H.
  inversion H; subst b'; clear H.
  destruct (fills_inside_In _ _ _ _ _ Hin HIn) as [Ho Hle].
  pose proof (len_put_fills be cbl n (len mid) fills mid eq_refl Hin) as Hl.
  rewrite (seg_rd be _ _ _ off t (seg_mid pre (put_fills be fills cbl n mid) post))
    by (eapply in_buf_member; eassumption).
  f_equal. apply (dec_put_fills be cbl n (len mid)); try assumption; reflexivity.
Qed.

Theorem do_fills_values : stmt_do_fills_values.
Proof.
  intros be b pos hsz fills cbl n b' off t v Hin Hdis Hb Hfit H HIn.
  rewrite Forall_forall in Hfit.
  eapply do_fills_value_one; try eassumption. apply (Hfit _ HIn).
Qed.
Print Assumptions do_fills_values.
