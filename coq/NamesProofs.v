(* NamesProofs.v — proofs about Names.v (C07, part 2). *)
From Coq Require Import ZArith NArith List Bool Ascii String Lia Permutation.
From Sbepp Require Import ListFacts Literals LiteralsProofs Names.
Import ListNotations.
Local Open Scope string_scope.

Lemma mem_In x l : mem x l = true <-> In x l.
Proof. apply existsb_eqb_In, String.eqb_eq. Qed.

Lemma mem_false x l : mem x l = false <-> ~ In x l.
Proof. rewrite <- mem_In. destruct (mem x l); split; congruence. Qed.

Lemma mem_app x a b : mem x (a ++ b) = mem x a || mem x b.
Proof. unfold mem. apply existsb_app. Qed.

Lemma app_inj_len a : forall b x y, String.length a = String.length b ->
  (a ++ x = b ++ y)%string -> a = b /\ x = y.
Proof.
  induction a as [|c a IH]; intros [|d b] x y Hl H; cbn in *; try discriminate; [auto|].
  injection H as -> H. injection Hl as Hl. destruct (IH _ _ _ Hl H) as [-> ->]. auto.
Qed.

Lemma append_neq_self a b : b <> "" -> a ++ b <> a.
Proof.
  intros Hb H. apply (f_equal String.length) in H. rewrite string_length_app in H.
  destruct b; [congruence|]. cbn in H. lia.
Qed.

Lemma render_nat_inj n m : render_nat n = render_nat m -> n = m.
Proof.
  unfold render_nat. intros H.
  pose proof (parse_render (N.of_nat n)) as Hn. pose proof (parse_render (N.of_nat m)) as Hm.
  rewrite H in Hn. rewrite Hn in Hm. injection Hm as Hm. lia.
Qed.

Lemma suffixed_inj name n m : suffixed name n = suffixed name m -> n = m.
Proof.
  unfold suffixed. intros H. apply (app_inj_len name name) in H as [_ [= H]]; [|reflexivity].
  apply render_nat_inj, H.
Qed.

Lemma suffixed_neq name n : suffixed name n <> name.
Proof. apply append_neq_self. discriminate. Qed.

Lemma entry_of_inj a b : entry_of a = entry_of b -> a = b.
Proof.
  unfold entry_of. intros H. apply (app_inj_len a b "_entry" "_entry"); [|exact H].
  apply (f_equal String.length) in H. rewrite !string_length_app in H. lia.
Qed.

Lemma entry_of_neq a : entry_of a <> a.
Proof. apply append_neq_self. discriminate. Qed.

(* the last character tells a suffixed name or a parameter name from the fixed
   names of the generated code *)
Fixpoint last_char (s : string) (d : ascii) : ascii :=
  match s with EmptyString => d | String c r => last_char r c end.

Lemma last_char_app a c r d : last_char (a ++ String c r) d = last_char r c.
Proof. revert d. induction a as [|x a IH]; intros d; cbn; [reflexivity|apply IH]. Qed.

Lemma last_char_digit r : forall c, all_chars is_digit (String c r) = true -> is_digit (last_char r c) = true.
Proof.
  induction r as [|x r IH]; intros c H; cbn in *.
  - rewrite andb_true_r in H. exact H.
  - apply andb_true_iff in H as [_ H]. apply IH. exact H.
Qed.

Definition pname (x : string) : bool :=
  let c := last_char x "x" in Ascii.eqb c "p" || is_digit c.

Lemma pname_suffixed z n : pname (suffixed z n) = true.
Proof.
  unfold pname, suffixed, render_nat.
  pose proof (render_N_digits (N.of_nat n)) as Hd. pose proof (render_N_nonempty (N.of_nat n)) as Hne.
  destruct (render_N (N.of_nat n)) as [|c r]; [congruence|].
  rewrite <- string_app_assoc, last_char_app, (last_char_digit r c Hd). apply orb_true_r.
Qed.

Lemma base_names_not_suffixed name n : ~ In (suffixed name n) group_base_names.
Proof.
  intros H. assert (Hb : forallb (fun x => negb (pname x)) group_base_names = true) by reflexivity.
  rewrite forallb_forall in Hb. specialize (Hb _ H). rewrite pname_suffixed in Hb. discriminate.
Qed.

Lemma first_free_good bad k n m :
  (n <= m < n + k)%nat -> bad m = false -> bad (first_free bad k n) = false.
Proof.
  revert n. induction k as [|k IH]; intros n Hm Hb; [lia|]. cbn [first_free].
  destruct (bad n) eqn:E; [|exact E].
  apply IH; [|exact Hb]. assert (m <> n) by (intros ->; congruence). lia.
Qed.

Lemma first_free_ge bad k n : (n <= first_free bad k n)%nat.
Proof.
  revert n. induction k as [|k IH]; intros n; cbn; [lia|].
  destruct (bad n); [|lia]. specialize (IH (S n)). lia.
Qed.

(* the loop finds a free index before its bound, wherever it starts: the bad
   indices are sent injectively into R, and |R|+1 indices do not fit
   (pigeonhole) *)
Lemma search_fresh {B} (h : nat -> B) (bad : nat -> bool) (R : list B) n :
  (forall m, bad m = true -> In (h m) R) ->
  (forall a b, h a = h b -> a = b) ->
  bad (first_free bad (S (List.length R)) n) = false.
Proof.
  intros HR Hinj. set (l := seq n (S (List.length R))).
  destruct (Forall_Exists_dec (fun m => bad m = true) (fun m => bool_dec (bad m) true) l) as [E|E].
  - exfalso. rewrite Forall_forall in E.
    assert (Hnd : NoDup (map h l)).
    { apply FinFun.Injective_map_NoDup; [exact Hinj|apply seq_NoDup]. }
    assert (Hincl : incl (map h l) R).
    { intros x Hx. apply in_map_iff in Hx as (m & <- & Hm). apply HR, E, Hm. }
    pose proof (NoDup_incl_length Hnd Hincl) as Hl. unfold l in Hl.
    rewrite map_length, seq_length in Hl. lia.
  - apply Exists_exists in E as (m & Hm & Hb). apply in_seq in Hm.
    apply (first_free_good bad _ n m); [lia|apply not_true_is_false, Hb].
Qed.

Lemma suffixed_search_fresh name R d :
  ~ In (suffixed name (first_free (fun n => mem (suffixed name n) R) (S (List.length R)) d)) R.
Proof.
  apply mem_false, (search_fresh (suffixed name) (fun n => mem (suffixed name n) R)).
  - intros m. apply mem_In.
  - apply suffixed_inj.
Qed.

Lemma make_mangled_fresh name reserved : ~ In (make_mangled_name name reserved) reserved.
Proof. apply suffixed_search_fresh. Qed.

Lemma make_mangled_shape name reserved : exists n, make_mangled_name name reserved = suffixed name n.
Proof. eexists. reflexivity. Qed.

Lemma unique_fresh desired existing depth :
  ~ In (make_unique_param_name desired existing depth) existing.
Proof.
  unfold make_unique_param_name. destruct (mem desired existing) eqn:E.
  - apply suffixed_search_fresh.
  - apply mem_false, E.
Qed.

(* make_mangled_group_info: both the group name and the entry name are new.
   A bad candidate has its group name or its entry name in R: tagging which,
   the candidates map injectively into two copies of R *)
Lemma group_candidate_bad_eq name em res n :
  group_candidate_bad name em res n =
  mem (suffixed name n) (em ++ res) || mem (entry_of (suffixed name n)) (em ++ res).
Proof. unfold group_candidate_bad. rewrite !mem_app, orb_assoc. reflexivity. Qed.

Lemma make_mangled_group_fresh name em res :
  let g := make_mangled_group_name name em res in
  ~ In g (em ++ res) /\ ~ In (entry_of g) (em ++ res).
Proof.
  cbn zeta. unfold make_mangled_group_name.
  rewrite <- !mem_false, <- orb_false_iff, <- group_candidate_bad_eq. set (R := (em ++ res)%list).
  set (h := fun n => if mem (suffixed name n) R then (true, suffixed name n)
                     else (false, entry_of (suffixed name n))).
  replace (2 * List.length R)%nat
    with (List.length (map (pair true) R ++ map (pair false) R)%list)
    by (rewrite app_length, !map_length; lia).
  apply (search_fresh h).
  - intros m. rewrite group_candidate_bad_eq. fold R. unfold h.
    destruct (mem (suffixed name m) R) eqn:E; intros Hb; apply in_app_iff; [left|right];
      apply in_map, mem_In; assumption.
  - intros a b. unfold h.
    destruct (mem (suffixed name a) R), (mem (suffixed name b) R); intros [= H];
      [apply suffixed_inj in H; exact H|apply entry_of_inj, suffixed_inj in H; exact H].
Qed.

(* The state is the set of reserved names and the decisions made so far; each
   decision [a] declares the class names [names a].  No class name is declared
   twice, every declared name is reserved, every decision is [ok]. *)
Section Registry.
  Context {A : Type} (names : A -> list string) (ok : A -> Prop).

  Definition Inv (st : list string * list A) : Prop :=
    NoDup (flat_map names (snd st)) /\ incl (flat_map names (snd st)) (fst st) /\ Forall ok (snd st).

  Lemma Inv_init : Inv ([], []).
  Proof. repeat split; [constructor|intros x []|constructor]. Qed.

  Lemma Inv_add reserved out a reserved' :
    Inv (reserved, out) -> incl reserved reserved' -> NoDup (names a) ->
    (forall x, In x (names a) -> ~ In x reserved /\ In x reserved') -> ok a ->
    Inv (reserved', a :: out).
  Proof.
    intros (I1 & I2 & I3) Hincl Hnd Hd Hok. cbn [fst snd flat_map] in *. repeat split.
    - apply NoDup_app'; [exact Hnd|exact I1|].
      intros x Hx Hin. apply I2 in Hin. destruct (Hd x Hx). contradiction.
    - intros x Hx. apply in_app_iff in Hx as [Hx|Hx]; [apply Hd, Hx|apply Hincl, I2, Hx].
    - constructor; assumption.
  Qed.

  (* the results list the decisions in the order they were made *)
  Lemma Inv_rev st : Inv st ->
    NoDup (flat_map names (rev (snd st))) /\ forall a, In a (rev (snd st)) -> ok a.
  Proof.
    intros (I1 & _ & I3). split.
    - eapply Permutation_NoDup; [|exact I1]. apply Permutation_flat_map, Permutation_rev.
    - intros a Ha. apply in_rev in Ha. rewrite Forall_forall in I3. auto.
  Qed.
End Registry.

(* mangled_tag_types_name / mangled_tag_messages_name *)
Lemma tag_name_ok tag names :
  match (if mem tag names then Some (make_mangled_name tag names) else None) with
  | Some t => In tag names /\ ~ In t names /\ t <> tag
  | None => ~ In tag names
  end.
Proof.
  destruct (mem tag names) eqn:E; [|apply mem_false, E].
  split; [apply mem_In, E|]. split; [apply make_mangled_fresh|apply suffixed_neq].
Qed.

Section EncInd.
  Variables (P : enc -> Prop) (Q : list elem -> Prop).
  Hypothesis HT : forall n k, P (EType n k).
  Hypothesis HE : forall n v, P (EEnum n v).
  Hypothesis HS : forall n c, P (ESet n c).
  Hypothesis HC : forall n es, Q es -> P (EComposite n es).
  Hypothesis HN : Q [].
  Hypothesis HR : forall n r, Q r -> Q (ERef n :: r).
  Hypothesis HX : forall e r, P e -> Q r -> Q (EEnc e :: r).
  Fixpoint enc_ind2 (e : enc) : P e :=
    match e with
    | EType n k => HT n k
    | EEnum n v => HE n v
    | ESet n c => HS n c
    | EComposite n es =>
      HC n es ((fix go (es : list elem) : Q es :=
                  match es with
                  | [] => HN
                  | ERef n :: r => HR n r (go r)
                  | EEnc e :: r => HX e r (enc_ind2 e) (go r)
                  end) es)
    end.
  Lemma enc_elems_ind : (forall e, P e) /\ (forall es, Q es).
  Proof. split; [exact enc_ind2|]. induction es as [|[n|e] r IH]; auto using enc_ind2. Qed.
End EncInd.

Section GroupInd.
  Variables (P : group -> Prop) (Q : list group -> Prop).
  Hypothesis HG : forall n fs gs ds, Q gs -> P (Group n fs gs ds).
  Hypothesis HN : Q [].
  Hypothesis HX : forall g r, P g -> Q r -> Q (g :: r).
  Fixpoint group_ind2 (g : group) : P g :=
    match g with
    | Group n fs gs ds =>
      HG n fs gs ds ((fix go (gs : list group) : Q gs :=
                        match gs with
                        | [] => HN
                        | x :: r => HX x r (group_ind2 x) (go r)
                        end) gs)
    end.
  Lemma group_groups_ind : (forall g, P g) /\ (forall gs, Q gs).
  Proof. split; [exact group_ind2|]. induction gs as [|g r IH]; auto using group_ind2. Qed.
End GroupInd.

Lemma handle_enc_nested_composite NM n es st :
  handle_enc_nested NM (EComposite n es) st = handle_elems NM es (nested_step NM (EComposite n es) st).
Proof.
  cbn [handle_enc_nested].
  generalize (nested_step NM (EComposite n es) st). induction es as [|x r IH]; intros s; [reflexivity|].
  destruct x; cbn [handle_elems]; apply IH.
Qed.

Lemma handle_group_eq NM n fs gs ds st :
  handle_group NM (Group n fs gs ds) st = handle_groups NM gs (group_step NM (Group n fs gs ds) st).
Proof.
  cbn [handle_group].
  generalize (group_step NM (Group n fs gs ds) st). induction gs as [|x r IH]; intros s; [reflexivity|].
  cbn [handle_groups]. apply IH.
Qed.

Lemma handle_elems_lift NM (P : tstate -> Prop) :
  (forall e st, P st -> P (nested_step NM e st)) ->
  (forall e st, P st -> P (handle_enc_nested NM e st)) /\
  (forall es st, P st -> P (handle_elems NM es st)).
Proof.
  intros Hstep. apply enc_elems_ind; intros;
    rewrite ?handle_enc_nested_composite; cbn [handle_enc_nested handle_elems]; auto.
Qed.

Lemma handle_groups_lift NM (P : mstate -> Prop) :
  (forall g st, P st -> P (group_step NM g st)) ->
  (forall g st, P st -> P (handle_group NM g st)) /\
  (forall gs st, P st -> P (handle_groups NM gs st)).
Proof.
  intros Hstep. apply group_groups_ind; intros;
    rewrite ?handle_group_eq; cbn [handle_groups]; auto.
Qed.

Definition type_detail (a : assign) : list string := if in_detail a then [a_impl a] else [].

Lemma detail_type_names_flat out : detail_type_names out = flat_map type_detail out.
Proof.
  unfold detail_type_names. induction out as [|a o IH]; [reflexivity|]. cbn [filter flat_map].
  unfold type_detail at 1. destruct (in_detail a); cbn [map app]; rewrite IH; reflexivity.
Qed.

Definition assign_ok (NM : list string) (a : assign) : Prop :=
  ~ In (a_impl a) (a_members a) /\
  if a_mangled a then ~ In (a_impl a) NM /\ exists n, a_impl a = suffixed (a_name a) n
  else a_impl a = a_name a.

Definition TInv (NM : list string) : tstate -> Prop := Inv type_detail (assign_ok NM).

Lemma TInv_add NM mangled out a newm :
  TInv NM (mangled, out) ->
  incl mangled newm ->
  (in_detail a = true -> ~ In (a_impl a) mangled /\ In (a_impl a) newm) ->
  assign_ok NM a ->
  TInv NM (newm, a :: out).
Proof.
  intros H Hincl Hd Hok. apply (Inv_add _ _ _ _ _ _ H Hincl); [| |exact Hok];
    unfold type_detail; destruct (in_detail a).
  - constructor; [intros []|constructor].
  - constructor.
  - intros x [<-|[]]. auto.
  - intros x [].
Qed.

Lemma TInv_add_mangled NM mangled out pub name members :
  TInv NM (mangled, out) ->
  let m := make_mangled_name name (members ++ mangled ++ NM) in
  TInv NM (m :: mangled, {| a_public := pub; a_name := name; a_impl := m; a_mangled := true;
                            a_members := members |} :: out).
Proof.
  intros H m. pose proof (make_mangled_fresh name (members ++ mangled ++ NM)) as Hf.
  fold m in Hf. rewrite !in_app_iff in Hf.
  apply Decidable.not_or in Hf as [F1 [F2 F3]%Decidable.not_or]. apply (TInv_add _ _ _ _ _ H).
  - apply incl_tl, incl_refl.
  - intros _. split; [exact F2|left; reflexivity].
  - split; [exact F1|]. split; [exact F3|apply make_mangled_shape].
Qed.

Lemma nested_step_inv NM e st : TInv NM st -> TInv NM (nested_step NM e st).
Proof.
  destruct st as [mangled out]. intros H. unfold nested_step.
  destruct (mem (enc_name e) (enc_members e) || mem (enc_name e) mangled) eqn:E.
  - apply TInv_add_mangled, H.
  - apply orb_false_iff in E as [E1 E2]. apply mem_false in E1, E2. apply (TInv_add _ _ _ _ _ H).
    + apply incl_tl, incl_refl.
    + intros _. split; [exact E2|left; reflexivity].
    + split; [exact E1|reflexivity].
Qed.

Lemma public_step_inv NM e st : TInv NM st -> TInv NM (public_step NM e st).
Proof.
  destruct st as [mangled out]. intros H. unfold public_step.
  set (st1 := if mem (enc_name e) (enc_members e) then _ else _).
  assert (H1 : TInv NM st1).
  { unfold st1. destruct (mem (enc_name e) (enc_members e)) eqn:E; [apply TInv_add_mangled, H|].
    apply mem_false in E. apply (TInv_add _ _ _ _ _ H); [apply incl_refl|discriminate|].
    split; [exact E|reflexivity]. }
  destruct e; try exact H1. apply (handle_elems_lift NM _ (nested_step_inv NM)), H1.
Qed.

Lemma type_names_inv types :
  TInv (map enc_name types)
    (fold_left (fun st e => public_step (map enc_name types) e st) types ([], [])).
Proof. apply fold_left_inv; [|apply Inv_init]. intros st e. apply public_step_inv. Qed.

(* the public names are the schema names, in the order given *)
Lemma nested_step_public_names NM e st :
  public_type_names (snd (nested_step NM e st)) = public_type_names (snd st).
Proof.
  destruct st as [m o]. unfold nested_step.
  destruct (mem (enc_name e) (enc_members e) || mem (enc_name e) m); reflexivity.
Qed.

Lemma elems_public_names NM es st :
  public_type_names (snd (handle_elems NM es st)) = public_type_names (snd st).
Proof.
  apply (handle_elems_lift NM (fun s => public_type_names (snd s) = public_type_names (snd st)));
    [|reflexivity].
  intros e s <-. apply nested_step_public_names.
Qed.

Lemma public_step_names NM st e :
  public_type_names (snd (public_step NM e st)) = enc_name e :: public_type_names (snd st).
Proof.
  destruct st as [m o]. unfold public_step.
  set (st1 := if mem (enc_name e) (enc_members e) then _ else _).
  assert (H1 : public_type_names (snd st1) = enc_name e :: public_type_names o).
  { unfold st1. destruct (mem (enc_name e) (enc_members e)); reflexivity. }
  destruct e; try exact H1. rewrite elems_public_names. exact H1.
Qed.

(* C07 (2), type side *)
Theorem type_names_ok : forall types,
  let r := generate_type_names types in
  let names := map enc_name types in
  NoDup (detail_type_names (tn_assigns r)) /\
  (forall a, In a (tn_assigns r) -> ~ In (a_impl a) (a_members a)) /\
  (forall a, In a (tn_assigns r) -> a_mangled a = true ->
     ~ In (a_impl a) names /\ exists n, a_impl a = suffixed (a_name a) n) /\
  (forall a, In a (tn_assigns r) -> a_mangled a = false -> a_impl a = a_name a) /\
  public_type_names (tn_assigns r) = names /\
  match tn_tag_types r with
  | Some t => In "types" names /\ ~ In t names /\ t <> "types"
  | None => ~ In "types" names
  end.
Proof.
  intros types r names. destruct (Inv_rev _ _ _ (type_names_inv types)) as [Hnd Hok].
  unfold r, generate_type_names. cbn [tn_assigns tn_tag_types]. fold names in Hnd, Hok |- *.
  split; [rewrite detail_type_names_flat; exact Hnd|].
  split; [intros a Ha; apply (Hok a Ha)|].
  split; [intros a Ha Hm; destruct (Hok a Ha) as [_ H]; rewrite Hm in H; exact H|].
  split; [intros a Ha Hm; destruct (Hok a Ha) as [_ H]; rewrite Hm in H; exact H|].
  split; [|apply tag_name_ok].
  unfold public_type_names. rewrite filter_rev, map_rev.
  exact (fold_left_prepends _ enc_name (fun s => public_type_names (snd s))
           (public_step_names names) types ([], [])).
Qed.

(* before the fix a scalar type named like a member it inherits from
   required_base kept its name: the class name hides that member *)
Example type_names_legacy_refuted :
  Legacy.public_type_impl "value" KRequired ["value"] = "value" /\
  In "value" (enc_members (EType "value" KRequired)) /\
  Legacy.group_needs_mangling (Group "size" ["x"] [] []) [] = false /\
  In "size" group_base_names.
Proof. repeat split; try reflexivity; apply mem_In; reflexivity. Qed.

Example type_names_nonvacuous :
  let r := generate_type_names
    [EComposite "C" [EEnc (EType "C" KRequired); EEnc (EEnum "min_value" ["x"])];
     EType "min_value" KRequired; EType "min_value_0" KRequired; ESet "types" ["a"]] in
  map a_impl (tn_assigns r) = ["C_0"; "C"; "min_value"; "min_value_1"; "min_value_0"; "types"] /\
  tn_tag_types r = Some "types_0".
Proof. vm_compute. split; reflexivity. Qed.

Definition massign_ok (NM : list string) (a : massign) : Prop :=
  ~ In (g_impl a) (g_members a) /\
  (if g_mangled a
   then ~ In (g_impl a) NM /\ (g_is_message a = false -> ~ In (g_entry a) NM) /\
        exists n, g_impl a = suffixed (g_name a) n
   else g_impl a = g_name a) /\
  (g_is_message a = false ->
     ~ In (g_entry a) (g_members a) /\ g_entry a = entry_of (g_impl a) /\
     ~ In (g_impl a) group_base_names).

Definition MInv (NM : list string) : mstate -> Prop := Inv msg_detail_names (massign_ok NM).

Lemma MInv_add_group NM mangled out name gn mg em :
  let a := {| g_is_message := false; g_name := name; g_impl := gn; g_entry := entry_of gn;
              g_mangled := mg; g_members := em |} in
  MInv NM (mangled, out) -> ~ In gn mangled -> ~ In (entry_of gn) mangled -> massign_ok NM a ->
  MInv NM (entry_of gn :: gn :: mangled, a :: out).
Proof.
  intros a H H1 H2 Hok. apply (Inv_add _ _ _ _ _ _ H); [| | |exact Hok]; cbn.
  - do 2 apply incl_tl. apply incl_refl.
  - constructor; [|constructor; [intros []|constructor]].
    intros [Hc|[]]. exact (entry_of_neq _ Hc).
  - intros x [<-|[<-|[]]]; split; try assumption; [right; left; reflexivity|left; reflexivity].
Qed.

Lemma group_step_inv NM g st : MInv NM st -> MInv NM (group_step NM g st).
Proof.
  destruct st as [mangled out]. intros H. unfold group_step.
  set (name := group_name g). set (em := group_members g).
  destruct (mem name mangled || mem (entry_of name) mangled || mem (entry_of name) em || mem name em
            || mem name group_base_names) eqn:E.
  - pose proof (make_mangled_group_fresh name em (mangled ++ NM)) as [F1 F2]. cbn zeta in F1, F2.
    set (gn := make_mangled_group_name name em (mangled ++ NM)) in *.
    rewrite !in_app_iff in F1, F2.
    apply Decidable.not_or in F1 as [A1 [A2 A3]%Decidable.not_or], F2 as [B1 [B2 B3]%Decidable.not_or].
    apply MInv_add_group; try assumption.
    split; [exact A1|]. split; [split; [exact A3|split; [intros _; exact B3|eexists; reflexivity]]|].
    intros _. split; [exact B1|]. split; [reflexivity|apply base_names_not_suffixed].
  - apply orb_false_elim in E as [[[[E1 E2]%orb_false_elim E3]%orb_false_elim E4]%orb_false_elim E5].
    rewrite mem_false in E1, E2, E3, E4, E5. apply MInv_add_group; try assumption.
    split; [exact E4|]. split; [reflexivity|]. intros _. split; [exact E3|]. split; [reflexivity|exact E5].
Qed.

Lemma message_step_inv NM m st : MInv NM st -> MInv NM (message_step NM m st).
Proof.
  destruct st as [mangled out]. intros H. unfold message_step.
  apply (handle_groups_lift NM _ (group_step_inv NM)).
  destruct (mem (m_name m) (message_members m)) eqn:E.
  - pose proof (make_mangled_fresh (m_name m) (message_members m ++ mangled ++ NM)) as Hf.
    rewrite !in_app_iff in Hf. apply Decidable.not_or in Hf as [F1 [F2 F3]%Decidable.not_or].
    apply (Inv_add _ _ _ _ _ _ H).
    + apply incl_tl, incl_refl.
    + constructor; [intros []|constructor].
    + intros x [<-|[]]. split; [exact F2|left; reflexivity].
    + split; [exact F1|]. split; [|discriminate].
      split; [exact F3|]. split; [discriminate|apply make_mangled_shape].
  - apply mem_false in E. apply (Inv_add _ _ _ _ _ _ H).
    + apply incl_refl.
    + constructor.
    + intros x [].
    + split; [exact E|]. split; [reflexivity|discriminate].
Qed.

Lemma message_names_inv msgs :
  MInv (map m_name msgs)
    (fold_left (fun st m => message_step (map m_name msgs) m st) msgs ([], [])).
Proof. apply fold_left_inv; [|apply Inv_init]. intros st m. apply message_step_inv. Qed.

Lemma group_step_public NM g st :
  public_message_names (snd (group_step NM g st)) = public_message_names (snd st).
Proof.
  destruct st as [m o]. unfold group_step.
  destruct (_ || mem (group_name g) group_base_names); reflexivity.
Qed.

Lemma groups_public NM gs st :
  public_message_names (snd (handle_groups NM gs st)) = public_message_names (snd st).
Proof.
  apply (handle_groups_lift NM (fun s => public_message_names (snd s) = public_message_names (snd st)));
    [|reflexivity].
  intros g s <-. apply group_step_public.
Qed.

Lemma message_step_public NM st m :
  public_message_names (snd (message_step NM m st)) = m_name m :: public_message_names (snd st).
Proof.
  destruct st as [mg o]. unfold message_step. rewrite groups_public.
  destruct (mem (m_name m) (message_members m)); reflexivity.
Qed.

(* C07 (2), message side *)
Theorem message_names_ok : forall msgs,
  let r := generate_message_names msgs in
  let names := map m_name msgs in
  NoDup (detail_message_names (mn_assigns r)) /\
  (forall a, In a (mn_assigns r) ->
     ~ In (g_impl a) (g_members a) /\
     (g_is_message a = false -> ~ In (g_entry a) (g_members a) /\ g_entry a = entry_of (g_impl a))) /\
  (forall a, In a (mn_assigns r) -> g_mangled a = true ->
     ~ In (g_impl a) names /\ (g_is_message a = false -> ~ In (g_entry a) names) /\
     exists n, g_impl a = suffixed (g_name a) n) /\
  (forall a, In a (mn_assigns r) -> g_mangled a = false -> g_impl a = g_name a) /\
  public_message_names (mn_assigns r) = names /\
  match mn_tag_messages r with
  | Some t => In "messages" names /\ ~ In t names /\ t <> "messages"
  | None => ~ In "messages" names
  end.
Proof.
  intros msgs r names. destruct (Inv_rev _ _ _ (message_names_inv msgs)) as [Hnd Hok].
  unfold r, generate_message_names. cbn [mn_assigns mn_tag_messages]. fold names in Hnd, Hok |- *.
  split; [exact Hnd|].
  split.
  { intros a Ha. destruct (Hok a Ha) as (M1 & _ & M3). split; [exact M1|].
    intros Hg. destruct (M3 Hg) as (M4 & M5 & _). auto. }
  split; [intros a Ha Hm; destruct (Hok a Ha) as (_ & H & _); rewrite Hm in H; exact H|].
  split; [intros a Ha Hm; destruct (Hok a Ha) as (_ & H & _); rewrite Hm in H; exact H|].
  split; [|apply tag_name_ok].
  unfold public_message_names. rewrite filter_rev, map_rev.
  exact (fold_left_prepends _ m_name (fun s => public_message_names (snd s))
           (message_step_public names) msgs ([], [])).
Qed.

(* a group class is never named like a public member of its base class *)
Theorem group_names_not_base : forall msgs a,
  In a (mn_assigns (generate_message_names msgs)) -> g_is_message a = false ->
  ~ In (g_impl a) group_base_names.
Proof.
  intros msgs a Ha Hg. destruct (Inv_rev _ _ _ (message_names_inv msgs)) as [_ Hok].
  destruct (Hok a Ha) as (_ & _ & H). apply (H Hg).
Qed.

Example message_names_nonvacuous :
  let r := generate_message_names
    [{| m_name := "a"; m_fields := ["a"]; m_groups := [Group "a" ["a_entry"] [] []]; m_data := [] |};
     {| m_name := "messages"; m_fields := []; m_groups := [Group "a" ["x"] [] []]; m_data := [] |}] in
  map g_impl (mn_assigns r) = ["a_0"; "a_1"; "messages"; "a"] /\
  map g_entry (mn_assigns r) = [""; "a_1_entry"; ""; "a_entry"] /\
  mn_tag_messages r = Some "messages_0".
Proof. vm_compute. repeat split. Qed.

Local Notation U := make_unique_param_name.

Lemma unique_pname y existing depth :
  pname (U (y ++ "_num_in_group") existing depth) = true.
Proof.
  unfold make_unique_param_name. destruct (mem _ existing); [apply pname_suffixed|].
  unfold pname. rewrite (last_char_app y "_" "num_in_group"). reflexivity.
Qed.

(* the parameter list so far: pairwise distinct names, each ending like a
   group counter *)
Definition PInv (names : list string) : Prop := NoDup names /\ Forall (fun x => pname x = true) names.

Lemma PInv_snoc names x : PInv names -> ~ In x names -> pname x = true -> PInv (names ++ [x]).
Proof.
  intros [H1 H2] Hx Hp. split; [apply NoDup_snoc; assumption|].
  apply Forall_app. split; [exact H2|constructor; [exact Hp|constructor]].
Qed.

Lemma PInv_push y names d : PInv names -> PInv (names ++ [U (y ++ "_num_in_group") names d]).
Proof. intros H. apply PInv_snoc; [exact H|apply unique_fresh|apply unique_pname]. Qed.

Lemma PInv_other names x : PInv names -> pname x = false -> NoDup (names ++ [x]).
Proof.
  intros [H1 H2] Hp. apply NoDup_snoc; [exact H1|]. intros Hx.
  rewrite Forall_forall in H2. rewrite (H2 _ Hx) in Hp. discriminate.
Qed.

(* the loops over the subgroups inside message_group_params and
   group_params_impl; message_groups_params is the first one at the empty path *)
Definition mgp_list (rpath : list string) :=
  fix go (gs : list group) (names : list string) : list string :=
    match gs with
    | [] => names
    | x :: r => go r (message_group_params U x rpath names)
    end.

Definition gpi_list (rpath : list string) :=
  fix go (gs : list group) (names : list string) : list string :=
    match gs with
    | [] => names
    | x :: r => go r (group_params_impl U x (group_name x :: rpath) names)
    end.

Lemma mgp_inv :
  (forall g rpath names, PInv names -> PInv (message_group_params U g rpath names)) /\
  (forall gs rpath names, PInv names -> PInv (mgp_list rpath gs names)).
Proof.
  apply group_groups_ind.
  - intros n fs gs ds IH rpath names H. apply (IH (n :: rpath)), PInv_push, H.
  - intros rpath names H. exact H.
  - intros g r Hg Hr rpath names H. apply (Hr rpath), Hg, H.
Qed.

(* message_traits<M>::size_bytes and group_traits<G>::size_bytes never declare
   two parameters with the same name *)
Theorem message_size_params_distinct : forall m, NoDup (message_size_params U m).
Proof.
  intros m. unfold message_size_params.
  assert (H : PInv (message_groups_params U (m_groups m) [])).
  { apply (proj2 mgp_inv (m_groups m) []). split; constructor. }
  destruct (_ || _); [apply PInv_other; [exact H|reflexivity]|apply H].
Qed.

Lemma gpi_inv :
  (forall g rpath names, rpath <> [] -> PInv names -> PInv (group_params_impl U g rpath names)) /\
  (forall gs rpath names, PInv names -> PInv (gpi_list rpath gs names)).
Proof.
  apply group_groups_ind.
  - intros n fs gs ds IH rpath names Hr H. apply (IH rpath).
    destruct rpath; [congruence|]. apply PInv_push, H.
  - intros rpath names H. exact H.
  - intros g r Hg Hr rpath names H. apply (Hr rpath), Hg; [discriminate|exact H].
Qed.

Theorem group_size_params_distinct : forall g, NoDup (group_size_params U g).
Proof.
  intros g. unfold group_size_params.
  assert (H : PInv (group_params_impl U g [] [])).
  { destruct g as [n fs gs ds]. apply (proj2 gpi_inv gs []), (PInv_snoc [] "num_in_group");
      [split; constructor|intros []|reflexivity]. }
  destruct (has_data_group g); [apply PInv_other; [exact H|reflexivity]|apply H].
Qed.

Definition clash_groups : list group :=
  [Group "a" [] [Group "b_c_d" ["x"] [] []] [];
   Group "a_b" [] [Group "c_d" ["x"] [] []] [];
   Group "a_b_c" [] [Group "d" ["x"] [] ["dd"]] []].
Definition clash_message : message :=
  {| m_name := "M"; m_fields := []; m_groups := clash_groups; m_data := [] |}.

Example size_params_nonvacuous :
  message_size_params U clash_message =
    ["a_num_in_group"; "a_b_c_d_num_in_group"; "a_b_num_in_group"; "a_b_c_d_num_in_group_1";
     "a_b_c_num_in_group"; "a_b_c_d_num_in_group_2"; "total_data_size"].
Proof. vm_compute. reflexivity. Qed.

(* before the fix the third group path that joins to the same text at the same
   depth got the same "_1" suffix as the second *)
Example size_params_legacy_refuted :
  ~ NoDup (message_size_params Legacy.make_unique_param_name clash_message).
Proof.
  vm_compute. intros H. apply (NoDup_remove_2 [_; _; _] _ _) in H. apply H. do 4 right. left. reflexivity.
Qed.
