(* Properties_C01.v — C01: encoding writes exactly the SBE wire image.
   Statements only; proofs in BytesFacts.v, LayoutProofs.v, MsgProofs.v,
   ScriptProofs.v, CompileProofs.v and SrcTablesProofs.v. *)
From Coq Require Import ZArith List.
From Sbepp Require Import CInt Bytes BytesFacts Msg Layout Wire MsgSpec LayoutProofs MsgProofs.
Import ListNotations.
Local Open Scope Z_scope.

(* the byte order primitives: both C++ implementations of set_primitive write
   the schema byte order image of the value, for every width *)
Theorem C01_set_primitive_bitcast : forall be w x, set_primitive_bitcast be w x = enc be w x.
Proof. exact set_primitive_bitcast_spec. Qed.
Print Assumptions C01_set_primitive_bitcast.

Theorem C01_set_primitive_memcpy : forall be w x, set_primitive_memcpy be w x = enc be w x.
Proof. exact set_primitive_memcpy_spec. Qed.
Print Assumptions C01_set_primitive_memcpy.

Theorem C01_big_endian_is_reversed_little : forall w x, enc true w x = rev (enc false w x).
Proof. exact enc_be_is_rev_le. Qed.
Print Assumptions C01_big_endian_is_reversed_little.

(* field offsets computed by the validator are the SBE ones: explicit offset
   honoured, otherwise end of the predecessor; constants take no space *)
Theorem C01_offsets_are_sbe : stmt_layout_sbe_offsets.
Proof. exact layout_sbe_offsets. Qed.
Print Assumptions C01_offsets_are_sbe.

(* ... and never overlap or leave the block *)
Theorem C01_fields_disjoint_in_block : stmt_layout_no_overlap.
Proof. exact layout_no_overlap. Qed.
Print Assumptions C01_fields_disjoint_in_block.

Theorem C01_block_length_covers_fields : stmt_block_length_covers.
Proof. exact block_length_covers. Qed.
Print Assumptions C01_block_length_covers_fields.

Theorem C01_composite_members_in_order : stmt_member_offsets_in_order.
Proof. exact member_offsets_in_order. Qed.
Print Assumptions C01_composite_members_in_order.

(* locality: a field setter (at any path) changes exactly the bytes of the
   located field; every other byte keeps its value; what was written reads back *)
Theorem C01_set_field_local : stmt_set_field_frame.
Proof. exact set_field_frame. Qed.
Print Assumptions C01_set_field_local.

(* resize changes only numInGroup *)
Theorem C01_group_resize_local : stmt_group_resize_frame.
Proof. exact group_resize_frame. Qed.
Print Assumptions C01_group_resize_local.

From Sbepp Require Import Cursor CursorSpec Checked ScriptSpec ScriptProofs.

(* THE property, at full strength: for every message table whose header /
   dimension fillers are consistent, every value tree of its shape whose
   values are representable, and ANY background buffer that is long enough,
   running the in-order script (fill_message_header; per level: the field
   setters, then for each group fill_group_header and its entries in order,
   then the data assignments) with the library's navigation yields exactly the
   reference image Wire.over_message -- header, fields at their offsets,
   dimensions, entries at blockLength stride, length-prefixed data -- followed
   by the untouched rest of the background: every byte that belongs to no
   written member keeps its previous value. *)
Theorem C01_encode_script_produces_wire_image : stmt_encode_script_image.
Proof. exact encode_script_image. Qed.
Print Assumptions C01_encode_script_produces_wire_image.

From Sbepp Require Import Compile CompileSpec CompileProofs.

(* accepted schemas compile to well-formed tables: dimensions (members inside
   the composite, blockLength/numInGroup disjoint and unsigned), levels (fields
   inside the block, data length types unsigned), header geometry, fills inside
   the header -- the hypotheses of the encoding/decoding theorems *)
Theorem C01_accepted_schema_dimension_wf : stmt_compile_dim_wf.
Proof. exact compile_dim_wf. Qed.
Print Assumptions C01_accepted_schema_dimension_wf.

Theorem C01_accepted_schema_level_wf : stmt_compile_level_table_wf.
Proof. exact compile_level_table_wf. Qed.
Print Assumptions C01_accepted_schema_level_wf.

Theorem C01_accepted_schema_message_header_ok : stmt_compile_message_header_ok.
Proof. exact compile_message_header_ok. Qed.
Print Assumptions C01_accepted_schema_message_header_ok.

From Sbepp Require Import SrcTables SrcTablesProofs.

(* tables regenerated from /repo's utils.hpp / sbe_schema_validator.hpp on
   every run: a field of built-in primitive type p gets the wrapper of p, and
   the size tables of the validator (layout) and of the generator (cursor
   offsets) agree with the encoding width of p *)
Theorem C01_source_wrapper_of_each_primitive : stmt_src_wrappers.
Proof. exact src_wrappers. Qed.
Print Assumptions C01_source_wrapper_of_each_primitive.

Theorem C01_source_size_tables_agree : stmt_src_sizes.
Proof. exact src_sizes. Qed.
Print Assumptions C01_source_size_tables_agree.
