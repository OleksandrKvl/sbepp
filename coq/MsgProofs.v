(* MsgProofs.v — proofs of the wire / runtime statements of MsgSpec.v. *)
From Coq Require Import ZArith List Bool Lia.
From Sbepp Require Import CInt CIntFacts Bytes BytesFacts Msg Layout Wire MsgSpec.
Import ListNotations.
Local Open Scope Z_scope.

Lemma len_length a : len a = Z.of_nat (length a).
Proof. reflexivity. Qed.

Lemma tbytes_pos t : 1 <= tbytes t.
Proof. destruct t; vm_compute; discriminate. Qed.

Lemma pow_tw t : 256 ^ Z.of_nat (tw t) = 2 ^ bits t.
Proof. destruct t; reflexivity. Qed.

Lemma len_enc_tw be t x : len (enc be (tw t) x) = tbytes t.
Proof. rewrite len_enc. unfold tw. pose proof (tbytes_pos t). lia. Qed.

Lemma dec_enc_fits be t v : fits t v -> dec be (enc be (tw t) v) = v.
Proof.
  intros H. apply dec_enc_small. rewrite pow_tw. exact H.
Qed.

Lemma len_put be bg off t v : in_buf bg off (tbytes t) = true ->
  len (put be bg off t v) = len bg.
Proof. intros H. unfold put. apply len_splice. rewrite len_enc_tw. exact H. Qed.

Lemma slice_put_same be bg off t v : in_buf bg off (tbytes t) = true ->
  slice (put be bg off t v) off (tbytes t) = enc be (tw t) v.
Proof.
  intros H. unfold put. rewrite <- (len_enc_tw be t v).
  apply slice_splice_same. rewrite len_enc_tw. exact H.
Qed.

Lemma dec_put_same be bg off t v : in_buf bg off (tbytes t) = true -> fits t v ->
  dec be (slice (put be bg off t v) off (tbytes t)) = v.
Proof. intros H Hf. rewrite slice_put_same by exact H. apply dec_enc_fits. exact Hf. Qed.

Lemma slice_put_other be bg off t v off' n :
  in_buf bg off (tbytes t) = true -> in_buf bg off' n = true ->
  off' + n <= off \/ off + tbytes t <= off' ->
  slice (put be bg off t v) off' n = slice bg off' n.
Proof.
  intros H1 H2 Hd. unfold put. apply slice_splice_other; rewrite ?len_enc_tw; assumption.
Qed.

Lemma seg_rd_bytes b p x off n : seg b p x -> in_buf x off n = true ->
  rd_bytes b (p + off) n = Some (slice x off n).
Proof.
  intros Hs H. unfold rd_bytes.
  now rewrite (seg_in_buf_sub _ _ _ _ _ Hs H), (seg_slice_sub _ _ _ _ _ Hs H).
Qed.

Lemma seg_rd_bytes_all b p x : seg b p x -> rd_bytes b p (len x) = Some x.
Proof. intros Hs. unfold rd_bytes. now rewrite (seg_in_buf _ _ _ Hs), (seg_slice _ _ _ Hs). Qed.

Lemma rd_bytes_in b off n : 0 <= off /\ 0 <= n /\ off + n <= len b ->
  rd_bytes b off n = Some (slice b off n).
Proof. intros H. apply in_buf_iff in H. unfold rd_bytes. rewrite H. reflexivity. Qed.

Lemma rd_bytes_some b off n x : rd_bytes b off n = Some x ->
  0 <= off /\ 0 <= n /\ off + n <= len b /\ x = slice b off n.
Proof.
  unfold rd_bytes. destruct (in_buf b off n) eqn:E; [|discriminate].
  intros [= <-]. apply in_buf_iff in E. tauto.
Qed.

Lemma rd_bytes_not_none b off n : rd_bytes b off n <> None ->
  0 <= off /\ 0 <= n /\ off + n <= len b.
Proof.
  destruct (rd_bytes b off n) eqn:E; [intros _; apply rd_bytes_some in E; tauto|congruence].
Qed.

Lemma rd_rd_bytes be b off t : rd be b off t = option_map (dec be) (rd_bytes b off (tbytes t)).
Proof. unfold rd, rd_bytes. now destruct (in_buf b off (tbytes t)). Qed.

Lemma rd_in be b off t : 0 <= off -> off + tbytes t <= len b ->
  rd be b off t = Some (dec be (slice b off (tbytes t))).
Proof.
  intros H1 H2. pose proof (tbytes_pos t). rewrite rd_rd_bytes, rd_bytes_in by lia. reflexivity.
Qed.

Lemma seg_rd be b p x off t : seg b p x -> in_buf x off (tbytes t) = true ->
  rd be b (p + off) t = Some (dec be (slice x off (tbytes t))).
Proof. intros Hs H. now rewrite rd_rd_bytes, (seg_rd_bytes _ _ _ _ _ Hs H). Qed.

Lemma seg_rd_enc be b p t v : seg b p (enc be (tw t) v) -> fits t v -> rd be b p t = Some v.
Proof.
  intros Hs Hf. rewrite rd_rd_bytes, <- (len_enc_tw be t v), (seg_rd_bytes_all _ _ _ Hs).
  cbn [option_map]. f_equal. now apply dec_enc_fits.
Qed.

Lemma in_buf_member bg sz off t : len bg = sz -> 0 <= off -> off + tbytes t <= sz ->
  in_buf bg off (tbytes t) = true.
Proof. intros Hl Ho Hle. apply in_buf_iff. pose proof (tbytes_pos t). lia. Qed.

Lemma wf_dim_in_bl d bg : wf_dim d -> len bg = d_size d ->
  in_buf bg (d_bl_off d) (tbytes (d_bl_t d)) = true.
Proof. intros (_ & _ & H1 & H2 & _) Hl. now apply (in_buf_member _ (d_size d)). Qed.

Lemma wf_dim_in_n d bg : wf_dim d -> len bg = d_size d ->
  in_buf bg (d_n_off d) (tbytes (d_n_t d)) = true.
Proof. intros (_ & _ & _ & _ & H1 & H2 & _) Hl. now apply (in_buf_member _ (d_size d)). Qed.

Lemma wf_dim_size_pos d : wf_dim d -> 1 <= d_size d.
Proof.
  intros (_ & _ & H1 & H2 & _). pose proof (tbytes_pos (d_bl_t d)). lia.
Qed.

Lemma len_dim_bytes be d bg bl n : wf_dim d -> len bg = d_size d ->
  len (dim_bytes be d bg bl n) = d_size d.
Proof.
  intros Hd Hl. unfold dim_bytes.
  rewrite !len_put; auto using wf_dim_in_bl. apply wf_dim_in_n; [exact Hd|].
  rewrite len_put; auto using wf_dim_in_bl.
Qed.

Lemma dim_bytes_bl be d bg bl n : wf_dim d -> len bg = d_size d -> fits (d_bl_t d) bl ->
  dec be (slice (dim_bytes be d bg bl n) (d_bl_off d) (tbytes (d_bl_t d))) = bl.
Proof.
  intros Hd Hl Hf. unfold dim_bytes. pose proof (wf_dim_in_bl d bg Hd Hl) as Hib.
  assert (H1 : len (put be bg (d_bl_off d) (d_bl_t d) bl) = d_size d)
    by (rewrite len_put; assumption).
  rewrite slice_put_other; auto using wf_dim_in_bl, wf_dim_in_n, dec_put_same.
  destruct Hd as (_ & _ & _ & _ & _ & _ & [H|H]); auto.
Qed.

Lemma dim_bytes_n be d bg bl n : wf_dim d -> len bg = d_size d -> fits (d_n_t d) n ->
  dec be (slice (dim_bytes be d bg bl n) (d_n_off d) (tbytes (d_n_t d))) = n.
Proof.
  intros Hd Hl Hf. unfold dim_bytes. apply dec_put_same; [|exact Hf].
  apply wf_dim_in_n; [exact Hd|]. rewrite len_put; auto using wf_dim_in_bl.
Qed.

(* the two header reads of a dimension image, wherever it sits *)
Lemma group_at_seg be b pos d bg bl n :
  wf_dim d -> len bg = d_size d -> fits (d_bl_t d) bl -> fits (d_n_t d) n ->
  seg b pos (dim_bytes be d bg bl n) ->
  group_at be b d pos = Some {| gv_pos := pos; gv_bl := bl; gv_n := n |}.
Proof.
  intros Hd Hl Hfbl Hfn Hs. unfold group_at.
  pose proof (len_dim_bytes be d bg bl n Hd Hl) as HlD.
  rewrite (seg_rd _ _ _ _ _ _ Hs (wf_dim_in_bl _ _ Hd HlD)), dim_bytes_bl by assumption.
  rewrite (seg_rd _ _ _ _ _ _ Hs (wf_dim_in_n _ _ Hd HlD)), dim_bytes_n by assumption.
  reflexivity.
Qed.

Lemma obind_some {A B} (o : option A) (f : A -> option B) r :
  obind o f = Some r -> exists a, o = Some a /\ f a = Some r.
Proof. destruct o as [a|]; cbn; [eauto|discriminate]. Qed.

Lemma wr_frame b off bs b' : wr b off bs = Some b' ->
  0 <= off /\ off + len bs <= len b /\ len b' = len b /\
  slice b' off (len bs) = bs /\
  forall i, (i < Z.to_nat off \/ Z.to_nat off + length bs <= i)%nat ->
    nth i b' 0 = nth i b 0.
Proof.
  unfold wr. destruct (in_buf b off (len bs)) eqn:Hin; [|discriminate].
  intros H; inversion H; subst; clear H.
  pose proof Hin as Hin'. apply in_buf_iff in Hin'.
  split; [lia|]. split; [lia|]. split; [apply len_splice; exact Hin|].
  split; [apply slice_splice_same; exact Hin|].
  intros i Hi. apply nth_splice_other; assumption.
Qed.

Lemma wr_mid pre mid post off bs : in_buf mid off (len bs) = true ->
  wr (pre ++ mid ++ post) (len pre + off) bs = Some (pre ++ splice mid off bs ++ post).
Proof.
  intros H. unfold wr. rewrite in_buf_mid by exact H. f_equal. apply splice_mid. exact H.
Qed.

Theorem set_field_frame : stmt_set_field_frame.
Proof.
  unfold stmt_set_field_frame, set_field. intros be b m base path k bs b' H.
  apply obind_some in H. destruct H as [[[pos bl] l] [_ H]].
  destruct (nth_error (level_fields l) k) as [f|]; [|discriminate].
  destruct (len bs =? f_size f); [|discriminate].
  exists (pos + f_off f). apply wr_frame. exact H.
Qed.
Print Assumptions set_field_frame.

Theorem group_resize_frame : stmt_group_resize_frame.
Proof.
  unfold stmt_group_resize_frame, group_resize. intros be b m base path k n b' H.
  apply obind_some in H. destruct H as [[[[g d] cbl] sub] [Hloc H]].
  exists g, d, cbl, sub. split; [exact Hloc|].
  apply wr_frame in H. destruct H as (_ & _ & Hl & _ & Hn).
  split; [exact Hl|]. intros i Hi. apply Hn. rewrite length_enc. exact Hi.
Qed.
Print Assumptions group_resize_frame.

(* Unfolding equations: the fixpoints are mutual / nested, never [simpl]. *)

Lemma enc_level_eq be l block vgs vds :
  enc_level be l (VLevel block vgs vds) =
  block ++ enc_groups be (level_groups l) vgs ++ enc_datas be (level_datas l) vds.
Proof. reflexivity. Qed.

Lemma enc_level_parts be l v :
  enc_level be l v =
  vblock v ++ enc_groups be (level_groups l) (vlevel_groups v)
           ++ enc_datas be (level_datas l) (vlevel_datas v).
Proof. destruct v; reflexivity. Qed.

Lemma enc_groups_cons be d cbl l rest bg es vrest :
  enc_groups be (GCons d cbl l rest) (VGCons bg es vrest) =
  dim_bytes be d bg (first_block_len es (dec be (slice bg (d_bl_off d) (tbytes (d_bl_t d)))))
            (ecount es)
  ++ enc_entries be l es ++ enc_groups be rest vrest.
Proof. reflexivity. Qed.

Lemma enc_groups_gnil be vgs : enc_groups be GNil vgs = [].
Proof. destruct vgs; reflexivity. Qed.

Lemma enc_entries_cons be l e r :
  enc_entries be l (VECons e r) = enc_level be l e ++ enc_entries be l r.
Proof. reflexivity. Qed.

Lemma wf_level_eq be l block vgs vds :
  wf_level be l (VLevel block vgs vds) =
  (wf_groups be (level_groups l) vgs /\ datas_fit (level_datas l) vds).
Proof. reflexivity. Qed.

Lemma wf_level_parts be l v :
  wf_level be l v ->
  wf_groups be (level_groups l) (vlevel_groups v) /\ datas_fit (level_datas l) (vlevel_datas v).
Proof. destruct v; intros H; exact H. Qed.

Lemma wf_groups_cons be d cbl l rest bg es vrest :
  wf_groups be (GCons d cbl l rest) (VGCons bg es vrest) =
  (let bl := first_block_len es (dec be (slice bg (d_bl_off d) (tbytes (d_bl_t d)))) in
   wf_dim d /\ len bg = d_size d /\ bytes_ok bg = true /\
   fits (d_bl_t d) bl /\ fits (d_n_t d) (ecount es) /\
   all_blocks_len es bl /\
   (is_flat l = true -> d_size d + ecount es * bl < 2 ^ 64) /\
   wf_entries be l es /\ wf_groups be rest vrest).
Proof. reflexivity. Qed.

Lemma wf_entries_cons be l e r :
  wf_entries be l (VECons e r) = (wf_level be l e /\ wf_entries be l r).
Proof. reflexivity. Qed.

Lemma fuel_needed_gs_cons d cbl l rest bg es vrest :
  fuel_needed_gs (GCons d cbl l rest) (VGCons bg es vrest) =
  Z.max (if is_flat l then 0 else Z.max (ecount es) (fuel_needed_es l es))
        (fuel_needed_gs rest vrest).
Proof. reflexivity. Qed.

Lemma fuel_needed_es_cons l e r :
  fuel_needed_es l (VECons e r) = Z.max (fuel_needed l e) (fuel_needed_es l r).
Proof. reflexivity. Qed.

Lemma level_end_eq be b fuel fs gs ds pos bl :
  level_end be b fuel (Level fs gs ds) pos bl =
  obind (groups_end be b fuel gs (pos + bl)) (fun p => datas_end be b ds p).
Proof. reflexivity. Qed.

Lemma level_end_parts be b fuel l pos bl :
  level_end be b fuel l pos bl =
  obind (groups_end be b fuel (level_groups l) (pos + bl)) (fun p => datas_end be b (level_datas l) p).
Proof. destruct l. reflexivity. Qed.

(* the anonymous loop of [groups_end] is [entries_walk] *)
Lemma loop_is_entries_walk be b fuel l bl : forall k n pos,
  (fix loop (k : nat) (n pos : Z) {struct k} : option Z :=
     if n <=? 0 then Some pos else
     match k with
     | O => None
     | S k' => obind (level_end be b fuel l pos bl) (fun p' => loop k' (n - 1) p')
     end) k n pos
  = entries_walk be b fuel l bl k n pos.
Proof.
  induction k as [|k IH]; intros n pos; cbn [entries_walk].
  - reflexivity.
  - destruct (n <=? 0); [reflexivity|].
    destruct (level_end be b fuel l pos bl) as [p'|]; cbn [obind]; [apply IH|reflexivity].
Qed.

Lemma groups_end_cons be b fuel d cbl l rest pos :
  groups_end be b fuel (GCons d cbl l rest) pos =
  obind (rd be b (pos + d_bl_off d) (d_bl_t d)) (fun bl =>
  obind (rd be b (pos + d_n_off d) (d_n_t d)) (fun n =>
  obind
    (if is_flat l
     then obind (flat_group_size d n bl) (fun s => Some (pos + s))
     else entries_walk be b fuel l bl fuel n (pos + d_size d))
    (fun p => groups_end be b fuel rest p))).
Proof.
  cbn [groups_end].
  destruct (rd be b (pos + d_bl_off d) (d_bl_t d)) as [bl|]; cbn [obind]; [|reflexivity].
  destruct (rd be b (pos + d_n_off d) (d_n_t d)) as [n|]; cbn [obind]; [|reflexivity].
  destruct (is_flat l); [reflexivity|].
  rewrite loop_is_entries_walk. reflexivity.
Qed.

Lemma groups_end_at be b fuel d cbl l rest pos :
  groups_end be b fuel (GCons d cbl l rest) pos =
  obind (group_at be b d pos) (fun g =>
  obind
    (if is_flat l
     then obind (flat_group_size d (gv_n g) (gv_bl g)) (fun s => Some (pos + s))
     else entries_walk be b fuel l (gv_bl g) fuel (gv_n g) (pos + d_size d))
    (fun p => groups_end be b fuel rest p)).
Proof.
  rewrite groups_end_cons. unfold group_at.
  destruct (rd be b (pos + d_bl_off d) (d_bl_t d)); [|reflexivity].
  destruct (rd be b (pos + d_n_off d) (d_n_t d)); reflexivity.
Qed.

Lemma entries_walk_S be b fuel l bl k n pos : 0 < n ->
  entries_walk be b fuel l bl (S k) n pos =
  obind (level_end be b fuel l pos bl) (fun p' => entries_walk be b fuel l bl k (n - 1) p').
Proof.
  intros Hn. cbn [entries_walk]. destruct (Z.leb_spec n 0) as [Hle|Hgt]; [lia|reflexivity].
Qed.

Lemma entries_walk_0 be b fuel l bl k pos :
  entries_walk be b fuel l bl k 0 pos = Some pos.
Proof. destruct k; reflexivity. Qed.

(* a group as a one-element group list, and a group list as its first group
   followed by the others *)
(* where entry [i] of a group located at [pos] starts: by arithmetic in a flat
   group, by walking [i] entries in a nested one.  [entry_pos] is this inside
   the group; at the count it is where [groups_end] continues *)
Definition entry_start (be : bool) (b : list Z) (fuel : nat) (d : dim) (l : level)
  (bl pos i : Z) : option Z :=
  if is_flat l then Some (pos + d_size d + i * bl)
  else entries_walk be b fuel l bl fuel i (pos + d_size d).

Lemma entry_pos_start be b fuel d l g i : 0 <= i < gv_n g ->
  entry_pos be b fuel d l g i = entry_start be b fuel d l (gv_bl g) (gv_pos g) i.
Proof.
  intros Hi. unfold entry_pos, entry_start.
  replace (i <? 0) with false by (symmetry; apply Z.ltb_ge; lia).
  replace (gv_n g <=? i) with false by (symmetry; apply Z.leb_gt; lia). reflexivity.
Qed.

Lemma entry_pos_some be b fuel d l g i epos : entry_pos be b fuel d l g i = Some epos <->
  0 <= i < gv_n g /\ entry_start be b fuel d l (gv_bl g) (gv_pos g) i = Some epos.
Proof.
  unfold entry_pos, entry_start.
  destruct (Z.ltb_spec i 0); [|destruct (Z.leb_spec (gv_n g) i)]; cbn [orb].
  1, 2: split; [discriminate|lia].
  split; [intros E; split; [lia|exact E]|intros [_ E]; exact E].
Qed.

Lemma enc_groups_single be d cbl l bg es :
  enc_groups be (GCons d cbl l GNil) (VGCons bg es VGNil) =
  dim_bytes be d bg (first_block_len es (dec be (slice bg (d_bl_off d) (tbytes (d_bl_t d)))))
            (ecount es) ++ enc_entries be l es.
Proof. rewrite enc_groups_cons. cbn [enc_groups]. now rewrite app_nil_r. Qed.

Lemma enc_groups_cons_single be d cbl l rest bg es vrest :
  enc_groups be (GCons d cbl l rest) (VGCons bg es vrest) =
  enc_groups be (GCons d cbl l GNil) (VGCons bg es VGNil) ++ enc_groups be rest vrest.
Proof. rewrite enc_groups_single, enc_groups_cons. now rewrite <- app_assoc. Qed.

Lemma wf_groups_single be d cbl l rest bg es vrest :
  wf_groups be (GCons d cbl l rest) (VGCons bg es vrest) ->
  wf_groups be (GCons d cbl l GNil) (VGCons bg es VGNil).
Proof.
  rewrite !wf_groups_cons. cbv zeta.
  intros (H1 & H2 & H3 & H4 & H5 & H6 & H7 & H8 & _).
  repeat (split; [assumption|]). exact I.
Qed.

Lemma wf_groups_rest be d cbl l rest bg es vrest :
  wf_groups be (GCons d cbl l rest) (VGCons bg es vrest) -> wf_groups be rest vrest.
Proof. rewrite wf_groups_cons. cbv zeta. tauto. Qed.

Lemma flat_group_size_ok d n bl :
  is_unsigned_ity (d_bl_t d) -> 0 <= d_size d -> 0 <= n -> 0 <= bl ->
  d_size d + n * bl < 2 ^ 64 -> n < 2 ^ 64 -> bl < 2 ^ 64 ->
  flat_group_size d n bl = Some (d_size d + n * bl).
Proof.
  intros _ Hs Hn Hbl Hlt Hn64 Hbl64. unfold flat_group_size.
  rewrite cmul_size_t by nia. apply cadd_size_t; nia.
Qed.

Lemma flat_level_size_ok hdr bl :
  0 <= hdr -> 0 <= bl -> hdr + bl < 2 ^ 64 -> flat_level_size hdr bl = Some (hdr + bl).
Proof. apply cadd_size_t. Qed.

Lemma ecount_nonneg es : 0 <= ecount es.
Proof. induction es as [|e r IH]; cbn [ecount]; lia. Qed.

Lemma is_flat_inv l : is_flat l = true -> level_groups l = GNil /\ level_datas l = [].
Proof.
  unfold is_flat. intros H. apply andb_true_iff in H as [H1 H2].
  destruct (level_groups l); [|discriminate]. now destruct (level_datas l).
Qed.

Lemma enc_level_flat be l v : is_flat l = true -> enc_level be l v = vblock v.
Proof.
  intros H. apply is_flat_inv in H as [Hg Hd].
  rewrite enc_level_parts, Hg, Hd, enc_groups_gnil. cbn [enc_datas]. now rewrite !app_nil_r.
Qed.

Lemma enc_entries_flat_len be l bl es : is_flat l = true -> all_blocks_len es bl ->
  len (enc_entries be l es) = ecount es * bl.
Proof.
  intros Hf. induction es as [|e r IH]; intros Hb; [reflexivity|]. destruct Hb as [He Hr].
  rewrite enc_entries_cons, len_app, enc_level_flat, IH by assumption. cbn [ecount]. lia.
Qed.

(* a flat group is sized by arithmetic: no walk, no fuel *)
Lemma flat_group_end be d l es bl :
  wf_dim d -> fits (d_bl_t d) bl -> fits (d_n_t d) (ecount es) -> all_blocks_len es bl ->
  is_flat l = true -> d_size d + ecount es * bl < 2 ^ 64 ->
  flat_group_size d (ecount es) bl = Some (d_size d + len (enc_entries be l es)).
Proof.
  intros Hd Hfbl Hfn Hall Hfl Hlt.
  pose proof (ecount_nonneg es). pose proof (wf_dim_size_pos d Hd).
  pose proof (bits_le_64 (d_bl_t d)). pose proof (bits_le_64 (d_n_t d)). unfold fits in *.
  rewrite (enc_entries_flat_len be l bl) by assumption.
  apply flat_group_size_ok; (apply Hd || lia).
Qed.

Lemma datas_end_seg be : forall ds vds b pos,
  datas_fit ds vds -> seg b pos (enc_datas be ds vds) ->
  datas_end be b ds pos = Some (pos + len (enc_datas be ds vds)).
Proof.
  induction ds as [|t ds IH]; intros [|p vds] b pos Hfit Hs; try contradiction.
  - cbn [datas_end enc_datas]. now rewrite len_nil, Z.add_0_r.
  - destruct Hfit as (_ & Hf & Hrest). cbn [datas_end enc_datas] in *.
    apply seg_app in Hs as [Hn Hs]. apply seg_app in Hs as [_ Hs]. rewrite len_enc_tw in Hs.
    rewrite (seg_rd_enc _ _ _ _ _ Hn Hf). cbn [obind].
    rewrite (IH _ _ _ Hrest Hs), !len_app, len_enc_tw. f_equal. lia.
Qed.

(* opening the first group of an image of groups: its header, and where its
   entries and the remaining groups sit *)
Lemma groups_cons_image be b d cbl l rest bg es vrest pos :
  wf_groups be (GCons d cbl l rest) (VGCons bg es vrest) ->
  seg b pos (enc_groups be (GCons d cbl l rest) (VGCons bg es vrest)) ->
  let bl := first_block_len es (dec be (slice bg (d_bl_off d) (tbytes (d_bl_t d)))) in
  group_at be b d pos = Some {| gv_pos := pos; gv_bl := bl; gv_n := ecount es |} /\
  wf_entries be l es /\ all_blocks_len es bl /\
  seg b (pos + d_size d) (enc_entries be l es) /\
  wf_groups be rest vrest /\
  seg b (pos + d_size d + len (enc_entries be l es)) (enc_groups be rest vrest).
Proof.
  rewrite wf_groups_cons, enc_groups_cons. cbv zeta.
  intros (Hd & Hl & _ & Hfbl & Hfn & Hall & _ & Hwe & Hwr) Hs.
  apply seg_app in Hs as [HD Hs]. apply seg_app in Hs as [HE HR].
  rewrite len_dim_bytes in HE, HR by assumption.
  repeat split; try assumption. now apply (group_at_seg be b pos d bg).
Qed.

Lemma level_image be l v b pos : seg b pos (enc_level be l v) ->
  seg b pos (vblock v) /\
  seg b (pos + len (vblock v)) (enc_groups be (level_groups l) (vlevel_groups v)) /\
  seg b (pos + len (vblock v) + len (enc_groups be (level_groups l) (vlevel_groups v)))
      (enc_datas be (level_datas l) (vlevel_datas v)).
Proof.
  rewrite enc_level_parts. intros Hs.
  apply seg_app in Hs as [Hblock Hs]. apply seg_app in Hs as [Hg Hd]. auto.
Qed.

Scheme vlevel_mind := Induction for vlevel Sort Prop
  with vgroups_mind := Induction for vgroups Sort Prop
  with ventries_mind := Induction for ventries Sort Prop.
Combined Scheme vtree_mutind from vlevel_mind, vgroups_mind, ventries_mind.

(* The buffer [b] is fixed and the image sits anywhere inside it.  [seg_app]
   hands each part of the image to the reads or to the induction hypothesis
   that consumes it. *)
Lemma nav_seg :
  (forall v be l b pos fuel,
     wf_level be l v -> fuel_needed l v <= Z.of_nat fuel -> seg b pos (enc_level be l v) ->
     level_end be b fuel l pos (len (vblock v)) = Some (pos + len (enc_level be l v))) /\
  (forall vgs be gs b pos fuel,
     wf_groups be gs vgs -> fuel_needed_gs gs vgs <= Z.of_nat fuel ->
     seg b pos (enc_groups be gs vgs) ->
     groups_end be b fuel gs pos = Some (pos + len (enc_groups be gs vgs))) /\
  (forall es be l b pos fuel bl k,
     wf_entries be l es -> all_blocks_len es bl ->
     fuel_needed_es l es <= Z.of_nat fuel -> ecount es <= Z.of_nat k ->
     seg b pos (enc_entries be l es) ->
     entries_walk be b fuel l bl k (ecount es) pos = Some (pos + len (enc_entries be l es))).
Proof.
  apply vtree_mutind.
  - intros block vgs IHg vds be [fs gs ds] b pos fuel [Hwg Hwd] Hfuel Hs.
    destruct (level_image _ _ _ _ _ Hs) as (_ & Hg & Hd).
    rewrite enc_level_eq.
    cbn [level_groups level_datas vblock vlevel_groups vlevel_datas fuel_needed] in *.
    rewrite level_end_eq, (IHg _ _ _ _ _ Hwg Hfuel Hg). cbn [obind].
    rewrite (datas_end_seg _ _ _ _ _ Hwd Hd), !len_app. f_equal. lia.
  - intros be [|] b pos fuel Hwf _ _; [|contradiction].
    cbn [groups_end enc_groups]. now rewrite len_nil, Z.add_0_r.
  - intros bg es IHe vrest IHr be [|d cbl l rest] b pos fuel Hwf Hfuel Hs; [contradiction|].
    destruct (groups_cons_image _ _ _ _ _ _ _ _ _ _ Hwf Hs) as (Hg & _ & _ & HE & _ & HR).
    rewrite wf_groups_cons in Hwf. cbv zeta in Hwf.
    destruct Hwf as (Hd & Hl & _ & Hfbl & Hfn & Hall & Hflat & Hwe & Hwr).
    rewrite fuel_needed_gs_cons in Hfuel. apply Z.max_lub_iff in Hfuel as [Hfe Hfr].
    rewrite groups_end_at, Hg, enc_groups_cons, !len_app, len_dim_bytes, !Z.add_assoc by assumption.
    cbn [obind gv_n gv_bl].
    (* the entries end where the other groups begin, by arithmetic or by the walk *)
    rewrite <- (IHr be rest b _ fuel Hwr Hfr HR).
    destruct (is_flat l) eqn:Hfl.
    + rewrite (flat_group_end be d l es) by auto. cbn [obind]. now rewrite Z.add_assoc.
    + apply Z.max_lub_iff in Hfe as [Hfk Hfes].
      now rewrite (IHe be l b _ fuel _ _ Hwe Hall Hfes Hfk HE).
  - intros be l b pos fuel bl k _ _ _ _ _.
    cbn [ecount enc_entries]. now rewrite entries_walk_0, len_nil, Z.add_0_r.
  - intros e IHl r IHr be l b pos fuel bl k [Hwe Hwr] [Hbl Hall] Hfuel Hk Hs.
    rewrite fuel_needed_es_cons in Hfuel. apply Z.max_lub_iff in Hfuel as [Hfe Hfr].
    rewrite enc_entries_cons in *. cbn [ecount] in *.
    pose proof (ecount_nonneg r) as Hr0. destruct k as [|k]; [clear - Hk Hr0; lia|].
    assert (Hk' : ecount r <= Z.of_nat k) by (clear - Hk; lia).
    apply seg_app in Hs as [He Hr].
    rewrite entries_walk_S, <- Hbl, (IHl be l b pos fuel Hwe Hfe He) by (clear - Hr0; lia).
    cbn [obind]. rewrite Z.add_simpl_l.
    rewrite Hbl, (IHr be l b _ fuel bl k Hwr Hall Hfr Hk' Hr), len_app.
    now rewrite Z.add_assoc.
Qed.

Lemma level_end_seg be l v b pos fuel :
  wf_level be l v -> fuel_needed l v <= Z.of_nat fuel -> seg b pos (enc_level be l v) ->
  level_end be b fuel l pos (len (vblock v)) = Some (pos + len (enc_level be l v)).
Proof. apply (proj1 nav_seg). Qed.

Lemma groups_end_seg be gs vgs b pos fuel :
  wf_groups be gs vgs -> fuel_needed_gs gs vgs <= Z.of_nat fuel ->
  seg b pos (enc_groups be gs vgs) ->
  groups_end be b fuel gs pos = Some (pos + len (enc_groups be gs vgs)).
Proof. apply (proj1 (proj2 nav_seg)). Qed.

Lemma entries_walk_seg be l es b pos fuel bl k :
  wf_entries be l es -> all_blocks_len es bl ->
  fuel_needed_es l es <= Z.of_nat fuel -> ecount es <= Z.of_nat k ->
  seg b pos (enc_entries be l es) ->
  entries_walk be b fuel l bl k (ecount es) pos = Some (pos + len (enc_entries be l es)).
Proof. apply (proj2 (proj2 nav_seg)). Qed.

Theorem level_end_enc : stmt_level_end_enc.
Proof. intros be l v pre post fuel Hwf Hfuel. apply level_end_seg; auto using seg_mid. Qed.
Print Assumptions level_end_enc.

Theorem groups_end_enc : stmt_groups_end_enc.
Proof. intros be gs vgs pre post fuel Hwf Hfuel. apply groups_end_seg; auto using seg_mid. Qed.
Print Assumptions groups_end_enc.

Lemma entries_walk_enc be l es b pre post fuel bl k :
  wf_entries be l es -> all_blocks_len es bl ->
  fuel_needed_es l es <= Z.of_nat fuel -> ecount es <= Z.of_nat k ->
  b = pre ++ enc_entries be l es ++ post ->
  entries_walk be b fuel l bl k (ecount es) (len pre)
  = Some (len pre + len (enc_entries be l es)).
Proof.
  intros Hwf Hall Hfuel Hk ->. apply entries_walk_seg; auto using seg_mid.
Qed.

(* an entry of a nested group contains a dimension or a length prefix *)
Lemma nested_entry_nonempty be l e :
  is_flat l = false -> wf_level be l e -> 1 <= len (enc_level be l e).
Proof.
  intros Hfl Hwf. apply wf_level_parts in Hwf as [Hwg Hwd]. unfold is_flat in Hfl.
  rewrite enc_level_parts, !len_app.
  destruct (level_groups l) as [|d cbl l' rest], (vlevel_groups e) as [|bg es vrest];
    try contradiction.
  - destruct (level_datas l) as [|t ds], (vlevel_datas e) as [|p vds];
      try contradiction; [discriminate|].
    cbn [enc_datas]. rewrite !len_app, len_enc_tw. pose proof (tbytes_pos t).
    unfold len. lia.
  - rewrite wf_groups_cons in Hwg. cbv zeta in Hwg. destruct Hwg as (Hd & Hlen & _).
    rewrite enc_groups_cons, !len_app, len_dim_bytes by assumption.
    pose proof (wf_dim_size_pos d Hd). unfold len. lia.
Qed.

Lemma fuel_all :
  (forall v be l, wf_level be l v -> fuel_needed l v <= len (enc_level be l v)) /\
  (forall vgs be gs, wf_groups be gs vgs -> fuel_needed_gs gs vgs <= len (enc_groups be gs vgs)) /\
  (forall es be l, wf_entries be l es ->
     fuel_needed_es l es <= len (enc_entries be l es) /\
     (is_flat l = false -> ecount es <= len (enc_entries be l es))).
Proof.
  apply vtree_mutind.
  - intros block vgs IH vds be l [Hwg _]. specialize (IH be _ Hwg).
    rewrite enc_level_eq, !len_app. cbn [fuel_needed]. unfold len in *. lia.
  - intros be gs _. destruct gs; cbn [fuel_needed_gs enc_groups]; rewrite len_nil; lia.
  - intros bg es IHe vrest IHr be [|d cbl l rest] Hwf; [contradiction|].
    rewrite wf_groups_cons in Hwf. cbv zeta in Hwf.
    destruct Hwf as (_ & _ & _ & _ & _ & _ & _ & Hwe & Hwr).
    rewrite fuel_needed_gs_cons, enc_groups_cons, !len_app.
    specialize (IHr be rest Hwr). destruct (IHe be l Hwe) as [IH1 IH2].
    destruct (is_flat l); [|specialize (IH2 eq_refl)]; unfold len in *; lia.
  - intros be l _. cbn [fuel_needed_es enc_entries ecount]. rewrite len_nil. lia.
  - intros e IHl r IHr be l [Hwe Hwr].
    rewrite fuel_needed_es_cons, enc_entries_cons, len_app. cbn [ecount].
    specialize (IHl be l Hwe). destruct (IHr be l Hwr) as [IH1 IH2].
    split; [unfold len in *; lia|]. intros Hfl. specialize (IH2 Hfl).
    pose proof (nested_entry_nonempty be l e Hfl Hwe). lia.
Qed.

Lemma fuel_level_seg be l v b pos fuel :
  wf_level be l v -> seg b pos (enc_level be l v) -> len b <= Z.of_nat fuel ->
  fuel_needed l v <= Z.of_nat fuel.
Proof.
  intros Hwf Hs Hf. pose proof (proj1 fuel_all v be l Hwf). apply seg_bounds in Hs. lia.
Qed.

Lemma fuel_groups_seg be gs vgs b pos fuel :
  wf_groups be gs vgs -> seg b pos (enc_groups be gs vgs) -> len b <= Z.of_nat fuel ->
  fuel_needed_gs gs vgs <= Z.of_nat fuel.
Proof.
  intros Hwf Hs Hf. pose proof (proj1 (proj2 fuel_all) vgs be gs Hwf). apply seg_bounds in Hs. lia.
Qed.

Lemma fuel_entries_seg be l es b pos fuel :
  wf_entries be l es -> seg b pos (enc_entries be l es) -> len b <= Z.of_nat fuel ->
  fuel_needed_es l es <= Z.of_nat fuel /\ (is_flat l = false -> ecount es <= Z.of_nat fuel).
Proof.
  intros Hwf Hs Hf. destruct (proj2 (proj2 fuel_all) es be l Hwf) as [H1 H2].
  apply seg_bounds in Hs. split; [lia|]. intros Hfl. specialize (H2 Hfl). lia.
Qed.

Lemma level_end_seg_b be l v b pos fuel :
  wf_level be l v -> len b <= Z.of_nat fuel -> seg b pos (enc_level be l v) ->
  level_end be b fuel l pos (len (vblock v)) = Some (pos + len (enc_level be l v)).
Proof.
  intros Hwf Hfuel Hs. apply level_end_seg; [exact Hwf|eapply fuel_level_seg; eassumption|exact Hs].
Qed.

Lemma groups_end_seg_b be gs vgs b pos fuel :
  wf_groups be gs vgs -> len b <= Z.of_nat fuel -> seg b pos (enc_groups be gs vgs) ->
  groups_end be b fuel gs pos = Some (pos + len (enc_groups be gs vgs)).
Proof.
  intros Hwf Hfuel Hs.
  apply groups_end_seg; [exact Hwf|eapply fuel_groups_seg; eassumption|exact Hs].
Qed.

Lemma default_fuel_len b : len b <= Z.of_nat (default_fuel b).
Proof. unfold default_fuel, len. lia. Qed.

Theorem default_fuel_suffices : stmt_default_fuel_suffices.
Proof.
  intros be l v pre post Hwf.
  eapply fuel_level_seg; [exact Hwf|apply seg_mid|apply default_fuel_len].
Qed.
Print Assumptions default_fuel_suffices.

(* the k-th group: where it is found, and its image as a one-element list *)
Lemma nth_group_seg be b fuel : forall k gs vgs pos bg es,
  wf_groups be gs vgs -> len b <= Z.of_nat fuel -> seg b pos (enc_groups be gs vgs) ->
  vgroups_nth vgs k = Some (bg, es) ->
  exists d cbl sub,
    nth_group_pos be b fuel gs k pos = Some (pos + groups_prefix_len be gs vgs k, d, cbl, sub) /\
    wf_groups be (GCons d cbl sub GNil) (VGCons bg es VGNil) /\
    seg b (pos + groups_prefix_len be gs vgs k)
        (enc_groups be (GCons d cbl sub GNil) (VGCons bg es VGNil)).
Proof.
  induction k as [|k IH]; intros [|d cbl l rest] [|bg0 es0 vrest] pos bg es Hwf Hfuel Hs Hnth;
    try contradiction; try discriminate.
  (* in both cases the first group is split off *)
  all: pose proof (wf_groups_single _ _ _ _ _ _ _ _ Hwf) as Hwf1.
  all: rewrite enc_groups_cons_single in Hs; apply seg_app in Hs as [H1 Hr].
  all: cbn [vgroups_nth nth_group_pos groups_prefix_len] in *.
  - injection Hnth as -> ->. exists d, cbl, l. rewrite Z.add_0_r. split; [reflexivity | split; assumption].
  - destruct (IH rest vrest _ bg es (wf_groups_rest _ _ _ _ _ _ _ _ Hwf) Hfuel Hr Hnth)
      as (d' & cbl' & sub' & Hp & Hw & Hs').
    exists d', cbl', sub'.
    rewrite (groups_end_seg_b _ _ _ _ _ _ Hwf1 Hfuel H1).
    cbn [obind]. rewrite Z.add_assoc. split; [exact Hp | split; assumption].
Qed.

Lemma datas_fit_nth : forall ds vds k t,
  datas_fit ds vds -> nth_error ds k = Some t -> exists p, nth_error vds k = Some p.
Proof.
  induction ds as [|t0 ds IH]; intros [|p0 vds] k t Hfit Hn; try contradiction;
    [destruct k; discriminate|].
  destruct k as [|k]; cbn [nth_error] in *; [eauto|exact (IH vds k t (proj2 (proj2 Hfit)) Hn)].
Qed.

(* the k-th data: its length prefix and payload *)
Lemma nth_data_seg be b : forall ds vds k p pos,
  datas_fit ds vds -> nth_error vds k = Some p -> seg b pos (enc_datas be ds vds) ->
  exists t q, nth_data_pos be b ds k pos = Some (q, t) /\ fits t (len p) /\
    seg b q (enc be (tw t) (len p)) /\ seg b (q + tbytes t) p.
Proof.
  induction ds as [|t ds IH]; intros [|p0 vds] k p pos Hfit Hnth Hs; try contradiction.
  - destruct k; discriminate.
  - destruct Hfit as (_ & Hf & Hrest). cbn [enc_datas] in Hs.
    apply seg_app in Hs as [Hn Hs]. apply seg_app in Hs as [Hp Hs]. rewrite len_enc_tw in *.
    destruct k as [|k]; cbn [nth_error nth_data_pos] in *.
    + injection Hnth as ->. now exists t, pos.
    + rewrite (seg_rd_enc _ _ _ _ _ Hn Hf). cbn [obind]. now apply (IH vds).
Qed.

(* [msg_resolve] has found at [pos] a level whose image is in the buffer:
   what the accessors of that level return.  For the root level [msg_root] below
   gives the three premises. *)
Section Resolved.
  Variables (be : bool) (b : list Z) (m : message) (base : Z) (path : list step).
  Variables (pos : Z) (l : level) (v : vlevel).
  Hypothesis Hres : msg_resolve be b m base path = Some (pos, len (vblock v), l).
  Hypothesis Hwf : wf_level be l v.
  Hypothesis Hs : seg b pos (enc_level be l v).

  Lemma get_field_at k f :
    nth_error (level_fields l) k = Some f ->
    0 <= f_off f -> 0 <= f_size f -> f_off f + f_size f <= len (vblock v) ->
    get_field be b m base path k = Some (slice (vblock v) (f_off f) (f_size f)).
  Proof.
    intros Hk Ho Hsz Hle. unfold get_field. rewrite Hres. cbn [obind]. rewrite Hk.
    apply (seg_rd_bytes _ _ _ _ _ (proj1 (level_image _ _ _ _ _ Hs))). apply in_buf_iff. lia.
  Qed.

  Lemma locate_group_at k bg es :
    vgroups_nth (vlevel_groups v) k = Some (bg, es) ->
    exists d cbl sub,
      locate_group be b m base path k =
      Some ({| gv_pos := pos + len (vblock v)
                         + groups_prefix_len be (level_groups l) (vlevel_groups v) k;
               gv_bl := first_block_len es (dec be (slice bg (d_bl_off d) (tbytes (d_bl_t d))));
               gv_n := ecount es |}, d, cbl, sub).
  Proof.
    intros Hnth. destruct (wf_level_parts _ _ _ Hwf) as [Hwg _].
    destruct (level_image _ _ _ _ _ Hs) as (_ & Hg & _).
    destruct (nth_group_seg be b _ k _ _ _ bg es Hwg (default_fuel_len b) Hg Hnth)
      as (d & cbl & sub & Hp & Hw1 & Hs1).
    exists d, cbl, sub. unfold locate_group. rewrite Hres. cbn [obind]. rewrite Hp. cbn [obind].
    destruct (groups_cons_image _ _ _ _ _ _ _ _ _ _ Hw1 Hs1) as (-> & _). reflexivity.
  Qed.

  Lemma get_data_at k p :
    nth_error (vlevel_datas v) k = Some p -> get_data be b m base path k = Some p.
  Proof.
    intros Hnth. destruct (wf_level_parts _ _ _ Hwf) as [Hwg Hwd].
    destruct (level_image _ _ _ _ _ Hs) as (_ & Hg & Hd).
    unfold get_data, locate_data. rewrite Hres. cbn [obind].
    rewrite (groups_end_seg_b _ _ _ _ _ _ Hwg (default_fuel_len b) Hg). cbn [obind].
    destruct (nth_data_seg be b _ _ k p _ Hwd Hnth Hd) as (t & q & -> & Hf & Hn & Hp).
    cbn [obind]. rewrite (seg_rd_enc _ _ _ _ _ Hn Hf). cbn [obind].
    now apply seg_rd_bytes_all.
  Qed.
End Resolved.

Section Message.
  Variables (be : bool) (m : message) (hdrbg : list Z) (v : vlevel).
  Variables (b pre post : list Z).
  Hypothesis Hwf : wf_message be m hdrbg v.
  Hypothesis Hb : b = pre ++ enc_message be m hdrbg v ++ post.

  Let hdr := put be hdrbg (m_bl_off m) (m_bl_t m) (len (vblock v)).

  Lemma msg_hdr_in : in_buf hdrbg (m_bl_off m) (tbytes (m_bl_t m)) = true.
  Proof. destruct Hwf as (_ & H1 & H2 & H3 & _). now apply (in_buf_member _ (m_hdr_size m)). Qed.

  Lemma len_msg_hdr : len hdr = m_hdr_size m.
  Proof. unfold hdr. rewrite len_put by exact msg_hdr_in. apply Hwf. Qed.

  Lemma msg_buffer_split : b = (pre ++ hdr) ++ enc_level be (m_level m) v ++ post.
  Proof. rewrite Hb. unfold enc_message. fold hdr. now rewrite <- !app_assoc. Qed.

  Lemma len_pre_hdr : len (pre ++ hdr) = len pre + m_hdr_size m.
  Proof. rewrite len_app, len_msg_hdr. reflexivity. Qed.

  Lemma msg_wf_level : wf_level be (m_level m) v.
  Proof. apply Hwf. Qed.

  Lemma msg_hdr_seg : seg b (len pre) hdr.
  Proof. rewrite msg_buffer_split, <- app_assoc. apply seg_mid. Qed.

  Lemma msg_root_seg : seg b (len pre + m_hdr_size m) (enc_level be (m_level m) v).
  Proof. rewrite <- len_pre_hdr, msg_buffer_split. apply seg_mid. Qed.

  Lemma msg_block_length_enc : msg_block_length be b m (len pre) = Some (len (vblock v)).
  Proof.
    unfold msg_block_length. rewrite (seg_rd _ _ _ _ _ _ msg_hdr_seg).
    - f_equal. apply dec_put_same; [exact msg_hdr_in|apply Hwf].
    - destruct Hwf as (_ & H1 & H2 & _). now apply (in_buf_member _ _ _ _ len_msg_hdr).
  Qed.

  Lemma msg_resolve_root :
    msg_resolve be b m (len pre) [] = Some (len pre + m_hdr_size m, len (vblock v), m_level m).
  Proof. unfold msg_resolve. rewrite msg_block_length_enc. reflexivity. Qed.

  Lemma msg_size_bytes_enc_aux :
    len (enc_message be m hdrbg v) < 2 ^ 64 ->
    msg_size_bytes be b m (len pre) = Some (len (enc_message be m hdrbg v)).
  Proof.
    unfold msg_size_bytes, level_size_bytes, enc_message. fold hdr.
    rewrite msg_block_length_enc, len_app, len_msg_hdr. cbn [obind]. intros Hsz.
    destruct (is_flat (m_level m)) eqn:Hfl.
    - rewrite enc_level_flat in * by exact Hfl.
      pose proof len_msg_hdr. apply flat_level_size_ok; unfold len in *; lia.
    - rewrite (level_end_seg_b _ _ _ _ _ _ msg_wf_level (default_fuel_len b) msg_root_seg).
      cbn [obind]. f_equal. lia.
  Qed.
End Message.

Theorem msg_size_bytes_enc : stmt_msg_size_bytes_enc.
Proof.
  intros be m hdrbg v pre post Hwf Hsz.
  apply (msg_size_bytes_enc_aux be m hdrbg v _ pre post Hwf eq_refl Hsz).
Qed.
Print Assumptions msg_size_bytes_enc.

(* the empty path resolves to the root image: the premises of [Resolved] *)
Lemma msg_root be m hdrbg v pre post : wf_message be m hdrbg v ->
  let b := pre ++ enc_message be m hdrbg v ++ post in
  msg_resolve be b m (len pre) [] = Some (len pre + m_hdr_size m, len (vblock v), m_level m) /\
  wf_level be (m_level m) v /\
  seg b (len pre + m_hdr_size m) (enc_level be (m_level m) v).
Proof.
  intros Hwf b. split; [|split].
  - now apply (msg_resolve_root be m hdrbg v b pre post).
  - now apply (msg_wf_level be m hdrbg v).
  - now apply (msg_root_seg be m hdrbg v b pre post).
Qed.

Theorem get_root_field_enc : stmt_get_root_field_enc.
Proof.
  intros be m hdrbg v pre post k f Hwf.
  destruct (msg_root be m hdrbg v pre post Hwf) as (Hr & _ & Hs).
  eapply get_field_at; eassumption.
Qed.
Print Assumptions get_root_field_enc.

Theorem locate_root_group_enc : stmt_locate_root_group_enc.
Proof.
  intros be m hdrbg v pre post k bg es Hwf Hnth.
  destruct (msg_root be m hdrbg v pre post Hwf) as (Hr & Hw & Hs).
  destruct (locate_group_at _ _ _ _ _ _ _ _ Hr Hw Hs k bg es Hnth) as (d & cbl & sub & ->).
  eexists _, d, cbl, sub. repeat split.
Qed.
Print Assumptions locate_root_group_enc.

Theorem get_root_data_enc : stmt_get_root_data_enc.
Proof.
  intros be m hdrbg v pre post k p Hwf.
  destruct (msg_root be m hdrbg v pre post Hwf) as (Hr & Hw & Hs).
  eapply get_data_at; eassumption.
Qed.
Print Assumptions get_root_data_enc.
