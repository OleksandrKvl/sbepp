(* ScriptCounterexamples.v — statements of ScriptSpec.v that are false as
   written, with the witnesses. *)
From Coq Require Import ZArith List Bool Lia.
From Sbepp Require Import CInt Bytes Msg Layout Wire MsgSpec Cursor CursorSpec Checked ScriptSpec.
Import ListNotations.
Local Open Scope Z_scope.

(* C06: stmt_checked_exact needs [bytes_ok b].  The buffer of stmt_checked_exact is an arbitrary [list Z].  On an element
   outside [0,256) a header value decodes to a negative number; the visitor's
   flat-group test (rem / blockLength < numInGroup) and the exact arithmetic of
   [fit_groups] (pos + dim + numInGroup * blockLength <= len) then disagree.

   message: 2-byte header (blockLength : uint16), one flat group whose
   dimension is (blockLength : uint8, numInGroup : uint8); buffer
   [0;0; -1;5]: group blockLength = -1, numInGroup = 5. *)
Definition cx_dim : dim :=
  {| d_size := 2; d_bl_off := 0; d_bl_t := U8; d_n_off := 1; d_n_t := U8; d_fills := [] |}.
Definition cx_msg : message :=
  {| m_hdr_size := 2; m_bl_off := 0; m_bl_t := U16; m_cbl := 0; m_fills := [];
     m_level := Level [] (GCons cx_dim 0 (Level [] GNil []) GNil) [] |}.
Definition cx_cl : clevel := CLevel [] (CGCons (CLevel [] CGNil) CGNil).
Definition cx_buf : list Z := [0; 0; -1; 5].

Example cx_values :
  size_bytes_checked false cx_buf 5 cx_msg cx_cl = CkInvalid 1 /\
  described_fit false cx_buf cx_msg = Some (-1) /\
  bytes_ok cx_buf = false.
Proof. vm_compute. repeat split; reflexivity. Qed.

Theorem checked_exact_false_as_written : ~ stmt_checked_exact.
Proof.
  intros H. specialize (H false cx_buf cx_msg cx_cl 5%nat).
  assert (Hs : is_signed (m_bl_t cx_msg) = false) by reflexivity.
  assert (Hbo : 0 <= m_bl_off cx_msg) by (vm_compute; discriminate).
  assert (Hbe : m_bl_off cx_msg + tbytes (m_bl_t cx_msg) <= m_hdr_size cx_msg)
    by (vm_compute; discriminate).
  assert (Hwt : wf_table_level (m_level cx_msg)).
  { repeat split; try constructor; vm_compute; (reflexivity || discriminate). }
  assert (Hwc : wf_clevel (m_hdr_size cx_msg) (m_level cx_msg) cx_cl) by (cbn; tauto).
  assert (Hlen : len cx_buf < 2 ^ 63) by (vm_compute; reflexivity).
  assert (Hfuel : (length cx_buf < 5)%nat) by exact (le_n 5).
  specialize (H Hs Hbo Hbe Hwt Hwc Hlen Hfuel).
  vm_compute in H. discriminate H.
Qed.
Print Assumptions checked_exact_false_as_written.
