(* WorkProofs.v — C06: the work bound of size_bytes_checked (statements in
   WorkSpec.v).

   Invariant: 0 <= ck_rem and ck_rem never increases; every completed pass of
   the entry loop of a nested (non-flat) group consumes at least one byte of
   ck_rem at the entry's own level (the dimension of its first group or the
   length prefix of its first data member), so the number of passes is at most
   ck_rem <= len b < fuel.

   Work: a potential argument.  With W >= cl_members + 1 of every nested entry
   level, a part of the visit started in state s and finished in state s'
   satisfies
       steps s' + W * k <= steps s + A + W * (rem s - rem s')
   where A is the number of members of the part and k = 1 when the part
   certainly consumes a byte (k = 0 otherwise); a failing part reports at most
   steps s + B + W * rem s. *)
From Coq Require Import ZArith List Bool Lia.
From Sbepp Require Import CInt Bytes BytesFacts Msg MsgSpec MsgProofs Cursor CursorSpec CursorProofs
  Checked ScriptSpec CheckedProofs WorkSpec.
Import ListNotations.
Local Open Scope Z_scope.

Lemma members_nonneg :
  (forall l cl, 0 <= cl_members l cl) /\ (forall gs cgs, 0 <= gs_members gs cgs).
Proof.
  apply level_groups_ind.
  - intros fs gs IH ds [al cgs]. cbn [cl_members]. specialize (IH cgs). lia.
  - intros cgs. cbn [gs_members]. lia.
  - intros d cbl l IHl rest IHr [|cl crest]; cbn [gs_members]; [lia|].
    specialize (IHl cl). specialize (IHr crest). lia.
Qed.

Lemma cl_members_nonneg l cl : 0 <= cl_members l cl.
Proof. apply members_nonneg. Qed.
Lemma gs_members_nonneg gs cgs : 0 <= gs_members gs cgs.
Proof. apply members_nonneg. Qed.

Section Work.
  Variables (be : bool) (b : list Z) (fuel : nat) (W : Z).
  Hypothesis Hok : bytes_ok b = true.
  Hypothesis Hfuel : (length b < fuel)%nat.
  Hypothesis HW : 0 <= W.

  Definition post (s : ck) (A B k : Z) (out : ckout) : Prop :=
    match out with
    | KOk s' => 0 <= ck_rem s' /\ ck_rem s' + k <= ck_rem s /\ ck_steps s <= ck_steps s' /\
                ck_steps s' + W * k <= ck_steps s + A + W * (ck_rem s - ck_rem s')
    | KInvalid st => ck_steps s <= st <= ck_steps s + B + W * ck_rem s
    | KOob _ _ st => ck_steps s <= st <= ck_steps s + B + W * ck_rem s
    | KFuel => False
    end.

  Lemma Wmul x : 0 <= x -> 0 <= W * x.
  Proof. intros H. apply Z.mul_nonneg_nonneg; assumption. Qed.

  (* a bound for what follows state [s1] as a bound from [s], which lies at
     most [c] callbacks and at least [k0] bytes before [s1]; members may be
     traded for bytes surely consumed *)
  Lemma post_from s1 A1 B1 k1 c k0 s A B k out :
    post s1 A1 B1 k1 out ->
    ck_rem s1 + k0 <= ck_rem s /\ ck_steps s <= ck_steps s1 <= ck_steps s + c /\ 0 <= k0 /\
    k <= k1 + k0 /\ A1 + c + W * k <= A + W * (k1 + k0) /\ B1 + c <= B ->
    post s A B k out.
  Proof.
    intros H (Hr & Hst & Hk0 & Hk & HA & HB). pose proof (Wmul k0 Hk0).
    assert (W * (ck_rem s1 + k0) <= W * ck_rem s) by (apply Z.mul_le_mono_nonneg_l; lia).
    destruct out; cbn [post] in *; lia.
  Qed.

  Lemma post_bind s A1 B1 k1 A2 B2 k2 out1 (K : ck -> ckout) :
    post s A1 B1 k1 out1 ->
    (forall s1, 0 <= ck_rem s1 -> ck_rem s1 + k1 <= ck_rem s -> post s1 A2 B2 k2 (K s1)) ->
    post s (A1 + A2) (Z.max B1 (A1 + B2 - W * k1)) (k1 + k2) (kbind out1 K).
  Proof.
    intros H1 H2. destruct out1 as [s1| | |]; cbn [post kbind] in *; [|lia..].
    destruct H1 as (H1a & H1b & H1c & H1d). specialize (H2 s1 H1a H1b).
    destruct (K s1); cbn [post] in *; lia.
  Qed.

  Lemma fields_work v : forall al s, 0 <= ck_rem s ->
    post s (Z.of_nat (length al)) (Z.of_nat (length al)) 0 (ck_fields b v al s).
  Proof.
    induction al as [|a r IH]; intros s Hr; cbn [ck_fields]; pose proof (Wmul _ Hr).
    - cbn [post length]. lia.
    - destruct (ca_view a);
        [|destruct (touchP 1 b (ck_c s + ca_rel a) (ca_size a) s); [cbn [post length]; lia|]];
        (eapply post_from with (s1 := tick (set_c s _)) (c := 1) (k0 := 0); [apply IH, Hr|];
         cbn [tick set_c ck_rem ck_steps length]; lia).
  Qed.

  Lemma datas_work v : forall ds (first : bool) s, 0 <= ck_rem s ->
    post s (Z.of_nat (length ds)) (Z.of_nat (length ds)) (if datas_empty ds then 0 else 1)
         (ck_datas be b v ds first s).
  Proof.
    induction ds as [|t r IH]; intros first s Hr; pose proof (Wmul _ Hr).
    - cbn [ck_datas datas_empty post length]. lia.
    - rewrite ck_datas_cons. cbv zeta. cbn [datas_empty]. pose proof (tbytes_pos t).
      set (p := dyn_pos v first s). pose proof (val_nonneg be b Hok p (tbytes t)).
      set (n := dec be (slice b p (tbytes t))) in *.
      destruct (touchP 2 b p (tbytes t) s); [cbn [post length]; lia|].
      destruct (validateP (tick (set_c s (p + (tbytes t + n) mod 2 ^ 64))) (tbytes t))
        as [s1 Hge Hr1 _ Hs1|Hlt]; cbn [kbind tick set_c ck_rem ck_steps post length] in *; [|lia].
      destruct (validateP s1 n) as [s2 Hge2 Hr2 _ Hs2|Hlt]; cbn [kbind post]; [|lia].
      eapply post_from with (s1 := s2) (c := 1) (k0 := 1); [apply (IH false); lia|].
      destruct (datas_empty r); lia.
  Qed.

  Definition work_level (l : level) : Prop :=
    forall cl hdr v s,
      wf_table_level l -> wf_clevel hdr l cl -> cl_members l cl <= W ->
      0 <= ck_rem s <= len b ->
      post s (cl_members l cl) (cl_members l cl) (if is_flat l then 0 else 1)
           (ck_level be b fuel l cl v s).

  Definition work_groups (gs : groups) : Prop :=
    forall cgs v (first : bool) s,
      wf_table_groups gs -> wf_cgroups gs cgs -> gs_members gs cgs <= W ->
      0 <= ck_rem s <= len b ->
      post s (gs_members gs cgs) (gs_members gs cgs) (if groups_empty gs then 0 else 1)
           (ck_groups be b fuel gs cgs v first s).

  Lemma work_level_step fs gs ds : work_groups gs -> work_level (Level fs gs ds).
  Proof.
    intros IHg [al cgs] hdr v s (_ & _ & Hwg) [_ Hcg] HM Hr.
    rewrite ck_level_eq. cbn [clevel_fields clevel_groups cl_members] in *.
    pose proof (gs_members_nonneg gs cgs).
    eapply post_from with (s1 := s) (c := 0) (k0 := 0).
    - eapply post_bind; [apply fields_work; lia|intros s1 Hr1 Hk1].
      eapply post_bind; [apply IHg; try assumption; lia|intros s2 Hr2 _]. apply datas_work, Hr2.
    - unfold is_flat. cbn [level_groups level_datas].
      destruct (groups_empty gs), (datas_empty ds); cbn [andb]; lia.
  Qed.

  (* entries of a nested group: every pass costs its entry level's members plus
     one callback and consumes a byte, which pays for them *)
  Lemma entries_work l cl bl :
    work_level l -> wf_table_level l -> wf_clevel 0 l cl -> is_flat l = false -> 0 <= bl ->
    cl_members l cl + 1 <= W ->
    forall j n s, 0 <= ck_rem s <= len b -> ck_rem s < Z.of_nat j ->
      post s 0 (1 + cl_members l cl) 0 (ck_entries be b fuel l cl bl j n s).
  Proof.
    intros IHl Hwl Hcl Hfl Hbl HM. pose proof (cl_members_nonneg l cl).
    induction j as [|j IHj]; intros n s Hr Hj; pose proof (Wmul (ck_rem s) ltac:(lia));
      rewrite ck_entries_eq; (destruct (n <=? 0); [cbn [post]; lia|]); [lia|].
    unfold ck_entry. rewrite (is_empty_level_nonflat l cl Hfl).
    destruct (validateP (tick s) bl) as [s2 Hge Hr2 _ Hs2|Hlt];
      cbn [kbind tick ck_rem ck_steps post] in *; [|lia].
    eapply post_from with (s1 := s2) (c := 1) (k0 := 0).
    - eapply post_bind; [apply (IHl cl 0 _ s2 Hwl Hcl); lia|intros s3 Hr3 Hk3].
      rewrite Hfl in Hk3. apply IHj; lia.
    - rewrite Hfl. lia.
  Qed.

  (* what on_group does after the dimension: no iteration for a flat group *)
  Lemma group_body_work d l cl p s1 :
    work_level l -> wf_table_level l -> wf_clevel 0 l cl -> cl_members l cl + 1 <= W ->
    0 <= ck_rem s1 <= len b ->
    post s1 0 (1 + cl_members l cl) 0 (ck_group_body be b fuel d l cl p s1).
  Proof.
    intros IHl Hwl Hcl HM Hr1. pose proof (cl_members_nonneg l cl).
    unfold ck_group_body. cbv zeta.
    pose proof (val_nonneg be b Hok (p + d_bl_off d) (tbytes (d_bl_t d))) as Hbl.
    pose proof (val_nonneg be b Hok (p + d_n_off d) (tbytes (d_n_t d))) as Hn.
    set (bl := dec be (slice b (p + d_bl_off d) (tbytes (d_bl_t d)))) in *.
    set (n := dec be (slice b (p + d_n_off d) (tbytes (d_n_t d)))) in *.
    destruct (is_flat l) eqn:Hfl.
    - rewrite flat_check by lia. pose proof (Z.mul_nonneg_nonneg _ _ Hn Hbl) as Hnb.
      pose proof (Wmul _ Hnb). pose proof (Wmul (ck_rem s1) ltac:(lia)).
      destruct (Z.ltb_spec (ck_rem s1) (n * bl)); cbn [post ck_rem ck_steps]; lia.
    - apply entries_work; try assumption; unfold len in *; lia.
  Qed.

  Lemma work_groups_step d cbl l rest : work_level l -> work_groups rest -> work_groups (GCons d cbl l rest).
  Proof.
    intros IHl IHr [|cl crest] v first s (Hd & _ & Hwl & Hwr) Hwc HM Hr; [contradiction|].
    destruct Hwc as [Hcl Hcr]. pose proof (wf_dim_size_pos d Hd).
    cbn [gs_members groups_empty] in *.
    pose proof (cl_members_nonneg l cl). pose proof (gs_members_nonneg rest crest).
    pose proof (Wmul (ck_rem s) ltac:(lia)).
    rewrite ck_groups_cons. cbv zeta.
    destruct (validateP (tick (set_c s (dyn_pos v first s + d_size d))) (d_size d))
      as [s1 Hge Hr1 _ Hs1|Hlt]; cbn [kbind tick set_c ck_rem ck_steps post] in *; [|lia].
    destruct (touchP 3 b (dyn_pos v first s + d_bl_off d) (tbytes (d_bl_t d)) s1);
      [cbn [post]; lia|].
    destruct (touchP 3 b (dyn_pos v first s + d_n_off d) (tbytes (d_n_t d)) s1);
      [cbn [post]; lia|].
    eapply post_from with (s1 := s1) (c := 1) (k0 := 1).
    - eapply post_bind; [apply group_body_work; try assumption; lia|intros s2 Hr2 Hk2].
      apply IHr; try assumption; lia.
    - destruct (groups_empty rest); lia.
  Qed.

  Lemma work_all : (forall l, work_level l) /\ (forall gs, work_groups gs).
  Proof.
    apply level_groups_ind.
    - intros fs gs IH ds. apply work_level_step, IH.
    - intros cgs v first s _ _ _ Hr. cbn [ck_groups gs_members groups_empty post]. lia.
    - intros d cbl l IHl rest IHr. apply work_groups_step; assumption.
  Qed.
End Work.

(* neither the place of blockLength in the header nor its signedness matters *)
Theorem work_bound be b m cl fuel :
  bytes_ok b = true -> 0 <= m_hdr_size m ->
  wf_table_level (m_level m) -> wf_clevel (m_hdr_size m) (m_level m) cl ->
  (length b < fuel)%nat ->
  size_bytes_checked be b fuel m cl <> CkFuel /\
  0 <= ckres_steps (size_bytes_checked be b fuel m cl)
    <= (cl_members (m_level m) cl + 1) * (len b + 1).
Proof.
  intros Hok Hhdr Hwt Hwc Hfuel.
  pose proof (cl_members_nonneg (m_level m) cl) as HM.
  pose proof (val_nonneg be b Hok (m_bl_off m) (tbytes (m_bl_t m))) as Hbl.
  assert (Hlen : 0 <= len b) by (unfold len; lia).
  pose proof (Z.mul_nonneg_nonneg _ _ HM Hlen) as HMl.
  rewrite size_bytes_checked_eq. cbv zeta.
  set (M := cl_members (m_level m) cl) in *.
  set (bl := dec be (slice b (m_bl_off m) (tbytes (m_bl_t m)))) in *.
  destruct (Z.ltb_spec (len b) (m_hdr_size m)) as [|Hge];
    [split; [discriminate|cbn [ckres_steps]; lia]|].
  destruct (Z.ltb_spec (len b - m_hdr_size m) bl) as [|Hge2];
    [split; [discriminate|cbn [ckres_steps]; lia]|].
  set (v := {| lv_start := 0; lv_level := m_hdr_size m; lv_bl := bl; lv_end := len b |}).
  set (s := {| ck_rem := len b - m_hdr_size m - bl; ck_c := m_hdr_size m; ck_steps := 0 |}).
  assert (H : 0 <= ck_rem s <= len b) by (cbn; lia).
  apply (proj1 (work_all be b fuel M Hok Hfuel HM) (m_level m) cl (m_hdr_size m) v s
           Hwt Hwc (Z.le_refl _)) in H.
  fold M in H. subst s.
  assert (Hm1 : M * (len b - m_hdr_size m - bl) <= M * len b)
    by (apply Z.mul_le_mono_nonneg_l; lia).
  destruct (ck_level be b fuel (m_level m) cl v _) as [s3|st|k o st|];
    cbn [post to_ckres ckres_steps ck_rem ck_steps] in *;
    [split; [discriminate|]|split; [discriminate|lia]..|contradiction].
  destruct H as (Ha & Hb & Hc & Hd).
  pose proof (Z.mul_nonneg_nonneg _ _ HM Ha). destruct (is_flat (m_level m)); lia.
Qed.

Theorem checked_work_bound : stmt_checked_work_bound.
Proof.
  intros be b m cl fuel Hok _ Hbo Hbe. apply work_bound; [exact Hok|].
  pose proof (tbytes_pos (m_bl_t m)). lia.
Qed.
Print Assumptions checked_work_bound.

Definition kle (o1 o2 : ckout) : Prop := o1 = KFuel \/ o1 = o2.

Lemma kle_refl o : kle o o.
Proof. right. reflexivity. Qed.

Lemma kle_bind o1 o2 K1 K2 :
  kle o1 o2 -> (forall s, kle (K1 s) (K2 s)) -> kle (kbind o1 K1) (kbind o2 K2).
Proof.
  intros [->| ->] HK; [left; reflexivity|]. destruct o2; cbn [kbind]; auto using kle_refl.
Qed.

(* more fuel changes nothing but a [KFuel]; purely structural *)
Section Mono.
  Variables (be : bool) (b : list Z) (f1 f2 : nat).
  Hypothesis Hle : (f1 <= f2)%nat.

  Lemma mono_entries l cl bl :
    (forall cl v s, kle (ck_level be b f1 l cl v s) (ck_level be b f2 l cl v s)) ->
    forall j1 j2 n s, (j1 <= j2)%nat ->
      kle (ck_entries be b f1 l cl bl j1 n s) (ck_entries be b f2 l cl bl j2 n s).
  Proof.
    intros IH. induction j1 as [|j1 IHj]; intros j2 n s Hj; rewrite !ck_entries_eq;
      (destruct (n <=? 0); [apply kle_refl|]); [left; reflexivity|].
    destruct j2 as [|j2]; [lia|]. unfold ck_entry. apply kle_bind; [apply kle_refl|intros s2].
    apply kle_bind; [apply IH|intros s3]. apply IHj. lia.
  Qed.

  Lemma mono_all :
    (forall l cl v s, kle (ck_level be b f1 l cl v s) (ck_level be b f2 l cl v s)) /\
    (forall gs cgs v first s,
       kle (ck_groups be b f1 gs cgs v first s) (ck_groups be b f2 gs cgs v first s)).
  Proof.
    apply level_groups_ind.
    - intros fs gs IH ds cl v s. rewrite !ck_level_eq.
      apply kle_bind; [apply kle_refl|intros s1].
      apply kle_bind; [apply IH|intros s2; apply kle_refl].
    - intros cgs v first s. apply kle_refl.
    - intros d cbl l IHl rest IHr [|cl crest] v first s; [apply kle_refl|].
      rewrite !ck_groups_cons. apply kle_bind; [apply kle_refl|intros s1].
      destruct (touch 3 b _ _ s1); [apply kle_refl|].
      destruct (touch 3 b _ _ s1); [apply kle_refl|].
      apply kle_bind; [|intros s2; apply IHr]. unfold ck_group_body. cbv zeta.
      destruct (is_flat l); [apply kle_refl|]. apply mono_entries; [exact IHl|exact Hle].
  Qed.
End Mono.

Lemma sbc_mono be b f1 f2 m cl : (f1 <= f2)%nat ->
  size_bytes_checked be b f1 m cl = CkFuel \/
  size_bytes_checked be b f1 m cl = size_bytes_checked be b f2 m cl.
Proof.
  intros Hle. rewrite !size_bytes_checked_eq. cbv zeta.
  destruct (_ <? _); [right; reflexivity|]. destruct (_ <? _); [right; reflexivity|].
  edestruct (proj1 (mono_all be b f1 f2 Hle)) as [H|H]; [left|right]; rewrite H; reflexivity.
Qed.

Theorem checked_fuel_irrelevant : stmt_checked_fuel_irrelevant.
Proof.
  intros be b m cl fuel1 fuel2 Hok Hs Hbo Hbe Hwt Hwc Hf1 Hf2.
  destruct (checked_work_bound be b m cl fuel1 Hok Hs Hbo Hbe Hwt Hwc Hf1) as [N1 _].
  destruct (checked_work_bound be b m cl fuel2 Hok Hs Hbo Hbe Hwt Hwc Hf2) as [N2 _].
  destruct (Nat.le_ge_cases fuel1 fuel2) as [H|H]; apply (sbc_mono be b _ _ m cl) in H;
    destruct H; congruence.
Qed.
Print Assumptions checked_fuel_irrelevant.
