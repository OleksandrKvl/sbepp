(* GroupIterProofs.v — lemmas and proofs about GroupIter.v (C12). *)
From Coq Require Import ZArith Bool Lia List.
From Sbepp Require Import CInt CIntFacts BytesFacts GroupIter.
Import ListNotations.
Import GI.
Local Open Scope Z_scope.

Lemma wrap_uns_mul t a b : is_signed t = false ->
  wrap t (wrap t a * wrap t b) = wrap t (a * b).
Proof. intros Hs. unfold wrap. rewrite Hs. symmetry. apply Zmult_mod. Qed.

(* static_cast<std::size_t>(a) * b, whatever the type of b and the value of a:
   beside [cmul_size_t], the conversion of [a] is part of the term *)
Lemma cmul_size_t_cast tb a b : 0 <= a * b < 2 ^ 64 ->
  cmul SIZE_T tb (ccast SIZE_T a) b = Some (a * b).
Proof.
  intros H. unfold cmul, ccast. rewrite cbin_unsigned; rewrite uac_size_t; [|reflexivity].
  rewrite wrap_wrap, wrap_uns_mul by reflexivity. f_equal. apply wrap_id', u64_range, H.
Qed.

Lemma uns_cases t : is_uns t = true -> t = U8 \/ t = U16 \/ t = U32 \/ t = U64.
Proof. destruct t; try discriminate; intros _; auto. Qed.

Lemma uns_unsigned t : is_uns t = true -> is_signed t = false.
Proof. destruct t; try discriminate; reflexivity. Qed.

Lemma uns_range t z : is_uns t = true -> (in_range t z = true <-> 0 <= z < 2 ^ bits t).
Proof. intros Hu. apply unsigned_range, uns_unsigned, Hu. Qed.

Lemma uns_bound t z : is_uns t = true -> in_range t z = true -> 0 <= z < 2 ^ 64.
Proof.
  intros Hu Hr. apply in_range_u64, (fits_in_range t U64 z); [|exact Hr].
  destruct t; try discriminate Hu; reflexivity.
Qed.

Lemma in_range_uns_mono t x y : is_uns t = true ->
  0 <= x <= y -> in_range t y = true -> in_range t x = true.
Proof. intros Hu Hx. rewrite !(uns_range t _ Hu). lia. Qed.

Lemma wsize_pos t : 1 <= wsize t <= 8.
Proof. destruct t; cbn; lia. Qed.

Lemma padd_eq p v q : p + v = q -> tmin I64 <= q <= tmax I64 -> padd p v = q.
Proof. intros <- H. apply wrap_id', H. Qed.

Lemma padd_id p v : tmin I64 <= p + v <= tmax I64 -> padd p v = p + v.
Proof. apply padd_eq. reflexivity. Qed.

Lemma psub_eq p v q : p - v = q -> tmin I64 <= q <= tmax I64 -> psub p v = q.
Proof. intros <- H. apply wrap_id', H. Qed.

Lemma size_check_true chk b e need :
  (chk = true -> 0 <= need /\ b + need <= e /\ e - b < 2 ^ 64) ->
  size_check chk b e need = true.
Proof.
  intros Hc. unfold size_check. destruct chk; [|reflexivity]. destruct (Hc eq_refl) as (H0 & H1 & H2).
  rewrite !wrap_id' by (apply u64_range; lia). apply andb_true_iff. split; apply Z.leb_le; lia.
Qed.

Lemma gassert_true {A} chk c (k : outcome A) : c = true -> gassert chk c k = k.
Proof. intros ->. unfold gassert. rewrite orb_true_r. reflexivity. Qed.

(* the byte offset of the repaired operator+= is the mathematical product *)
Lemma offset_fixed_ok S B n bl :
  tmin I64 <= n <= tmax I64 -> 0 <= bl < 2 ^ 64 ->
  - 2 ^ 63 < n * bl < 2 ^ 63 ->
  offset_fixed S B n bl = Some (n * bl).
Proof.
  intros Hn Hbl Hp. unfold offset_fixed, ccast, cmul, PTRDIFF_T. rewrite (wrap_id' I64 n Hn).
  destruct (Z.eq_dec n 0) as [->|Hne].
  - rewrite cbin_exact; [reflexivity|reflexivity|apply wrap_range|reflexivity].
  - (* |bl| <= |n * bl| *)
    assert (bl < 2 ^ 63) by nia. rewrite (wrap_id' I64 bl) by (apply i64_range; lia).
    apply cbin_exact; apply in_range_iff; [exact Hn|apply i64_range; lia..].
Qed.

(* index arithmetic [a op b], a : S, b : difference_type or int, converted
   back to S: uint8 and uint16 are computed in int, exactly; uint32 and uint64
   in S itself, modulo 2^bits *)
Lemma idx_arith_ok f S tb a b :
  (forall t x y, is_signed t = false -> wrap t (f (wrap t x) (wrap t y)) = wrap t (f x y)) ->
  is_uns S = true -> tb = dty S \/ tb = INT ->
  in_range S a = true -> in_range tb b = true -> in_range S (f a b) = true ->
  gbind (of_opt (cbin f S tb a b)) (fun r => GOk (ccast S r)) = GOk (f a b).
Proof.
  intros Hf Hu Htb Ha Hb Hr. pose proof Hr as Hr'. apply in_range_iff in Ha, Hb, Hr'.
  unfold tmin, tmax in *. destruct S; try discriminate Hu; destruct Htb as [-> | ->];
    cbn [dty to_signed INT is_signed bits] in *.
  1-4: (* uint8, uint16 *) rewrite cbin_exact by (apply i32_range; lia).
  5-8: (* uint32, uint64 *) rewrite cbin_unsigned, Hf by reflexivity; cbn [uac promote ity_eqb INT]; rewrite (wrap_id _ _ Hr).
  all: cbn [of_opt gbind]; unfold ccast; rewrite (wrap_id _ _ Hr); reflexivity.
Qed.

(* index += n *)
Lemma idx_add_ok S idx n : is_uns S = true ->
  in_range S idx = true -> in_range (dty S) n = true -> in_range S (idx + n) = true ->
  idx_add S idx n = GOk (idx + n).
Proof. intros Hu. apply (idx_arith_ok Z.add S (dty S) idx n wrap_uns_add Hu). left. reflexivity. Qed.

(* index++ and index-- *)
Lemma idx_inc_ok S idx : is_uns S = true ->
  in_range S idx = true -> in_range S (idx + 1) = true ->
  idx_step cadd S idx = GOk (idx + 1).
Proof.
  intros Hu Hi. apply (idx_arith_ok Z.add S INT idx 1 wrap_uns_add Hu); [right|exact Hi|]; reflexivity.
Qed.

Lemma idx_dec_ok S idx : is_uns S = true ->
  in_range S idx = true -> in_range S (idx - 1) = true ->
  idx_step csub S idx = GOk (idx - 1).
Proof.
  intros Hu Hi. apply (idx_arith_ok Z.sub S INT idx 1 wrap_uns_sub Hu); [right|exact Hi|]; reflexivity.
Qed.

(* -n for a difference_type value other than its minimum *)
Lemma neg_diff_ok S n : is_uns S = true ->
  - tmax (dty S) <= n <= tmax (dty S) ->
  cneg (dty S) n = Some (- n) /\ in_range (dty S) n = true /\ in_range (dty S) (- n) = true.
Proof.
  intros Hu Hn.
  assert (H : in_range (promote (dty S)) (- n) = true /\
              in_range (dty S) n = true /\ in_range (dty S) (- n) = true)
    by (rewrite !in_range_iff; unfold tmin, tmax in *; destruct S; try discriminate Hu;
        cbn [dty to_signed promote is_signed bits] in *; lia).
  destruct H as (H1 & H2). rewrite (cneg_exact _ _ H1). split; [reflexivity|exact H2].
Qed.

(* difference_type values are ptrdiff_t values *)
Lemma diff_in_i64 S n : is_uns S = true -> in_range (dty S) n = true ->
  tmin I64 <= n <= tmax I64.
Proof.
  intros Hu Hn. apply in_range_iff, (fits_in_range (dty S) I64 n); [|exact Hn].
  destruct S; try discriminate Hu; reflexivity.
Qed.

(* the iterator denoting entry [i] of a group whose first entry is at [base]:
   this is the specification of where an iterator should be *)
Definition it_at (base bl e i : Z) : iter := mkIter (base + i * bl) bl i e.

(* the representability guards of one step from index [i] to index [j] *)
Definition step_ok (S : ity) (base bl i j : Z) : Prop :=
  in_range S i = true /\ in_range S j = true /\
  i * bl < 2 ^ 63 /\ j * bl < 2 ^ 63 /\
  tmin I64 <= base + j * bl <= tmax I64.

Lemma step_ok_intro S base bl i j :
  in_range S i = true -> in_range S j = true -> i * bl < 2 ^ 63 -> j * bl < 2 ^ 63 ->
  - 2 ^ 63 <= base + j * bl < 2 ^ 63 -> step_ok S base bl i j.
Proof.
  intros Hi Hj Hib Hjb Ha. apply i64_range in Ha. exact (conj Hi (conj Hj (conj Hib (conj Hjb Ha)))).
Qed.

(* the way back needs the source address as well *)
Lemma step_ok_rev S base bl i j :
  step_ok S base bl i j -> tmin I64 <= base + i * bl <= tmax I64 -> step_ok S base bl j i.
Proof. intros (Hi & Hj & Hib & Hjb & _) Hai. exact (conj Hj (conj Hi (conj Hjb (conj Hib Hai)))). Qed.

(* entry [a] of [n] lies between the first entry and the end *)
Lemma mul_between a n b : 0 <= b -> 0 <= a <= n -> 0 <= a * b <= n * b.
Proof. intros Hb Ha. split; [apply Z.mul_nonneg_nonneg|apply Z.mul_le_mono_nonneg_r]; lia. Qed.

(* every operation moves an iterator of the family [it_at base bl e] to
   another member of it *)
Section Moves.
  Variables (S B : ity) (base bl e : Z).
  Hypotheses (HS : is_uns S = true) (HB : is_uns B = true) (Hbl : in_range B bl = true).

  (* the common part of operator+= and operator-= *)
  Lemma it_add_with_at i n :
    in_range (dty S) n = true -> step_ok S base bl i (i + n) ->
    it_add_with offset_fixed S B (it_at base bl e i) n = GOk (it_at base bl e (i + n)).
  Proof.
    intros Hn (Hi & Hj & Hib & Hjb & Haddr).
    pose proof (uns_bound B bl HB Hbl). pose proof (uns_bound S i HS Hi).
    pose proof (uns_bound S _ HS Hj).
    assert (0 <= i * bl) by (apply Z.mul_nonneg_nonneg; lia).
    assert (0 <= (i + n) * bl) by (apply Z.mul_nonneg_nonneg; lia).
    unfold it_add_with, it_at. cbn [i_ptr i_bl i_idx i_end].
    rewrite offset_fixed_ok; [|exact (diff_in_i64 S n HS Hn)|lia|].
    2:{ replace (n * bl) with ((i + n) * bl - i * bl) by ring. lia. }
    cbn [of_opt gbind]. rewrite idx_add_ok by assumption. cbn [gbind].
    do 2 f_equal. apply padd_eq; [ring|exact Haddr].
  Qed.

  Lemma it_plus_at i n :
    in_range (dty S) n = true -> step_ok S base bl i (i + n) ->
    it_plus S B (it_at base bl e i) n = GOk (it_at base bl e (i + n)).
  Proof.
    intros Hn Hstep. unfold it_plus, it_add_assign_g, to_diff, ccast.
    rewrite (wrap_id _ _ Hn). apply it_add_with_at; assumption.
  Qed.

  Lemma it_minus_at i n :
    - tmax (dty S) <= n <= tmax (dty S) -> step_ok S base bl i (i - n) ->
    it_minus S B (it_at base bl e i) n = GOk (it_at base bl e (i - n)).
  Proof.
    intros Hn Hstep. destruct (neg_diff_ok S n HS Hn) as (Hneg & Hr & Hrn).
    unfold it_minus, it_sub_assign_g, to_diff, ccast.
    rewrite (wrap_id _ _ Hr), Hneg. cbn [of_opt gbind]. rewrite (wrap_id _ _ Hrn).
    replace (i - n) with (i + - n) in * by ring. apply it_add_with_at; assumption.
  Qed.

  (* ++ / -- move by exactly one entry *)
  Lemma it_inc_at chk i :
    step_ok S base bl i (i + 1) ->
    (chk = true -> 0 <= e - (base + i * bl) < 2 ^ 64 /\ base + (i + 1) * bl <= e) ->
    it_inc chk S B (it_at base bl e i) = GOk (it_at base bl e (i + 1)).
  Proof.
    intros (Hi & Hj & Hib & Hjb & Haddr) Hchk. pose proof (uns_bound B bl HB Hbl).
    unfold it_inc, it_at. cbn [i_ptr i_bl i_idx i_end].
    rewrite size_check_true by (intros Hc; destruct (Hchk Hc); lia).
    rewrite idx_inc_ok by assumption. cbn [gbind].
    do 2 f_equal. apply padd_eq; [ring|exact Haddr].
  Qed.

  Lemma it_dec_at i :
    step_ok S base bl i (i - 1) -> it_dec S B (it_at base bl e i) = GOk (it_at base bl e (i - 1)).
  Proof.
    intros (Hi & Hj & Hib & Hjb & Haddr). unfold it_dec, it_at. cbn [i_ptr i_bl i_idx i_end].
    rewrite idx_dec_ok by assumption. cbn [gbind].
    do 2 f_equal. apply psub_eq; [ring|exact Haddr].
  Qed.

  (* the k-th ++ from entry i is at entry i + k, as long as entry [n] at the
     end of the walk is representable and inside the view; zero-length blocks
     included *)
  Lemma it_inc_n_at chk n :
    in_range S n = true -> n * bl < 2 ^ 63 -> - 2 ^ 63 <= base -> base + n * bl < 2 ^ 63 ->
    (chk = true -> e - base < 2 ^ 64 /\ base + n * bl <= e) ->
    forall k i, 0 <= i -> i + Z.of_nat k = n ->
    it_inc_n chk S B k (it_at base bl e i) = GOk (it_at base bl e n).
  Proof.
    intros Hn Hp Hlo Hhi Hchk. pose proof (uns_bound B bl HB Hbl) as Hbl'.
    induction k as [|k IH]; intros i Hi Hk.
    - cbn [it_inc_n]. replace n with i by lia. reflexivity.
    - pose proof (mul_between i n bl). pose proof (mul_between (i + 1) n bl).
      cbn [it_inc_n]. rewrite it_inc_at.
      + apply IH; lia.
      + apply step_ok_intro; [apply (in_range_uns_mono S _ n); assumption || lia..|lia|lia|lia].
      + intros Hc. destruct (Hchk Hc). lia.
  Qed.
End Moves.

(* (it + n) - n == it and (it - n) + n == it, for positive and negative n *)
Theorem plus_minus_cancel S B base bl e i n :
  is_uns S = true -> is_uns B = true -> in_range B bl = true ->
  - tmax (dty S) <= n <= tmax (dty S) -> step_ok S base bl i (i + n) ->
  tmin I64 <= base + i * bl <= tmax I64 ->
  it_plus S B (it_at base bl e i) n = GOk (it_at base bl e (i + n)) /\
  it_minus S B (it_at base bl e (i + n)) n = GOk (it_at base bl e i).
Proof.
  intros HS HB Hbl Hn Hstep Hai.
  destruct (neg_diff_ok S n HS Hn) as (_ & Hr & _).
  split; [apply it_plus_at; assumption|].
  replace i with (i + n - n) at 2 by ring.
  apply it_minus_at; try assumption.
  replace (i + n - n) with i by ring. apply step_ok_rev; assumption.
Qed.

Theorem minus_plus_cancel S B base bl e i n :
  is_uns S = true -> is_uns B = true -> in_range B bl = true ->
  - tmax (dty S) <= n <= tmax (dty S) -> step_ok S base bl i (i - n) ->
  tmin I64 <= base + i * bl <= tmax I64 ->
  it_minus S B (it_at base bl e i) n = GOk (it_at base bl e (i - n)) /\
  it_plus S B (it_at base bl e (i - n)) n = GOk (it_at base bl e i).
Proof.
  intros HS HB Hbl Hn Hstep Hai.
  destruct (plus_minus_cancel S B base bl e (i - n) n) as [Hp Hm]; try assumption;
    replace (i - n + n) with i in * by ring.
  - apply step_ok_rev; assumption.
  - apply Hstep.
  - split; assumption.
Qed.

(* it[n] is *(it + n), and both are the address of entry i + n *)
Theorem subscript_is_plus S B base bl e i n :
  is_uns S = true -> is_uns B = true -> in_range B bl = true ->
  in_range (dty S) n = true -> step_ok S base bl i (i + n) ->
  it_subscript S B (it_at base bl e i) n = GOk (base + (i + n) * bl) /\
  gbind (it_plus S B (it_at base bl e i) n) (fun r => GOk (it_deref r))
    = GOk (base + (i + n) * bl).
Proof.
  intros HS HB Hbl Hn Hstep. unfold it_subscript.
  rewrite it_plus_at by assumption. split; reflexivity.
Qed.

Theorem distance_is_index_diff S base bl e i j :
  is_uns S = true -> in_range S i = true -> in_range S j = true ->
  in_range (dty S) (i - j) = true ->
  it_diff S (it_at base bl e i) (it_at base bl e j) = GOk (i - j).
Proof.
  intros HS Hi Hj Hd. unfold it_diff, it_at, csub, ccast. cbn [i_idx].
  pose proof Hd as Hd'. apply in_range_iff in Hi, Hj, Hd'.
  unfold tmin, tmax in Hi, Hj, Hd'.
  destruct S; try discriminate HS; cbn [dty to_signed is_signed bits] in *.
  1-2: (* uint8, uint16 *) rewrite cbin_exact by (apply i32_range; lia).
  3-4: (* uint32, uint64 *) rewrite cbin_unsigned, wrap_uns_sub by reflexivity.
  all: cbn [of_opt gbind].
  3: (* uint32 *) rewrite (wrap_signed_of_unsigned U32) by reflexivity.
  4: (* uint64 *) rewrite (wrap_signed_of_unsigned U64) by reflexivity.
  all: cbn [to_signed]; rewrite (wrap_id _ _ Hd); reflexivity.
Qed.

(* ordering = index ordering; for non-empty blocks it is also address order *)
Theorem order_is_index_order base bl e i j :
  let a := it_at base bl e i in
  let b := it_at base bl e j in
  it_eq a b = (i =? j) /\ it_lt a b = (i <? j) /\ it_le a b = (i <=? j) /\
  (0 < bl -> it_lt a b = (it_deref a <? it_deref b) /\
             it_eq a b = (it_deref a =? it_deref b)) /\
  (bl = 0 -> it_deref a = it_deref b).
Proof.
  cbn. unfold it_eq, it_lt, it_le, it_deref, it_at. cbn [i_idx i_ptr].
  repeat split; try reflexivity.
  - destruct (Z.ltb_spec i j), (Z.ltb_spec (base + i * bl) (base + j * bl)); try reflexivity; nia.
  - destruct (Z.eqb_spec i j), (Z.eqb_spec (base + i * bl) (base + j * bl)); try reflexivity; nia.
  - intros ->. lia.
Qed.

(* header contents are values of the header types; the dimension composite
   (size [g_hdr g] = sbepp::size_bytes(dimension), ANY such size) has room for
   blockLength and numInGroup and its size is below 2^63, so that
   header size + numInGroup * blockLength (< 2^63 in the theorems) does not
   wrap std::size_t; the address of the first entry is a representable address *)
Definition wf_grp (S B : ity) (g : grp) : Prop :=
  is_uns S = true /\ is_uns B = true /\
  in_range S (g_ng g) = true /\ in_range B (g_bl g) = true /\
  wsize B + wsize S <= g_hdr g < 2 ^ 63 /\
  tmin I64 <= g_ptr g + g_hdr g <= tmax I64.

(* precondition of every accessor when size checks are enabled: the view
   [g_ptr, g_end) covers the header and all the entries the header announces *)
Definition fits (chk : bool) (S B : ity) (g : grp) : Prop :=
  chk = true ->
  0 <= g_end g - g_ptr g < 2 ^ 64 /\
  g_ptr g + g_hdr g + g_ng g * g_bl g <= g_end g.

Lemma wf_grp_bounds S B g : wf_grp S B g ->
  0 <= g_ng g < 2 ^ 64 /\ 0 <= g_bl g < 2 ^ 64 /\ 0 <= g_ng g * g_bl g /\
  2 <= g_hdr g < 2 ^ 63 /\ - 2 ^ 63 <= g_ptr g + g_hdr g < 2 ^ 63.
Proof.
  intros (HS & HB & Hng & Hbl & Hh & Ha). apply i64_range in Ha.
  pose proof (uns_bound S _ HS Hng). pose proof (uns_bound B _ HB Hbl).
  pose proof (wsize_pos S). pose proof (wsize_pos B).
  assert (0 <= g_ng g * g_bl g) by (apply Z.mul_nonneg_nonneg; lia). lia.
Qed.

Lemma hdr_size_bounds S B : is_uns S = true -> is_uns B = true -> 2 <= hdr_size S B <= 16.
Proof. intros _ _. unfold hdr_size. pose proof (wsize_pos S). pose proof (wsize_pos B). lia. Qed.

Lemma size_bytes_fixed_ok S B H ng bl :
  0 <= H -> 0 <= ng * bl -> H + ng * bl < 2 ^ 64 ->
  size_bytes_fixed S B H ng bl = Some (H + ng * bl).
Proof.
  intros Hh Hp Hs. unfold size_bytes_fixed. rewrite cmul_size_t_cast by lia. cbn [obind].
  apply cbin_exact; rewrite !uac_size_t; apply in_range_iff, u64_range; lia.
Qed.

Lemma g_size_bytes_ok chk S B g :
  hdr_ok chk S B g = true -> 0 <= g_hdr g -> 0 <= g_ng g * g_bl g ->
  g_hdr g + g_ng g * g_bl g < 2 ^ 64 ->
  g_size_bytes chk S B g = GOk (g_hdr g + g_ng g * g_bl g).
Proof.
  intros Hh H0 Hp Hs. unfold g_size_bytes, g_size_bytes_g.
  rewrite (gassert_true _ _ _ Hh), size_bytes_fixed_ok by assumption. reflexivity.
Qed.

(* with checks enabled an out-of-range position is reported, never dereferenced *)
Lemma g_at_assert S B g pos : ~ (ccast S pos < g_ng g) -> g_at true S B g pos = GAssert.
Proof.
  intros Hn. unfold g_at, gassert. cbn [negb orb].
  destruct (Z.ltb_spec (ccast S pos) (g_ng g)); [contradiction|].
  rewrite andb_false_r. reflexivity.
Qed.

(* the accessors of a well-formed group that fits its view *)
Section FlatGroup.
  Variables (chk : bool) (S B : ity) (g : grp).
  Hypotheses (Hwf : wf_grp S B g) (Hf : fits chk S B g).

  Lemma hdr_ok_fits : hdr_ok chk S B g = true.
  Proof.
    destruct (wf_grp_bounds S B g Hwf) as (_ & _ & Hp & Hh & _).
    apply size_check_true. intros Hc. destruct (Hf Hc). lia.
  Qed.

  Lemma nonempty_ok : 0 < g_ng g -> hdr_ok chk S B g && negb (g_ng g =? 0) = true.
  Proof. intros Hne. rewrite hdr_ok_fits. destruct (Z.eqb_spec (g_ng g) 0); [lia|reflexivity]. Qed.

  Lemma g_begin_ok : g_begin chk S B g = GOk (it_at (g_ptr g + g_hdr g) (g_bl g) (g_end g) 0).
  Proof.
    unfold g_begin. rewrite (gassert_true _ _ _ hdr_ok_fits).
    unfold g_begin_ptr, it_at. rewrite padd_id by apply Hwf. do 2 f_equal. ring.
  Qed.

  (* end() is positioned after the last entry and carries index numInGroup *)
  Lemma g_end_it_ok :
    g_ng g * g_bl g < 2 ^ 63 ->
    tmin I64 <= g_ptr g + g_hdr g + g_ng g * g_bl g <= tmax I64 ->
    g_end_it chk S B g = GOk (it_at (g_ptr g + g_hdr g) (g_bl g) (g_end g) (g_ng g)).
  Proof.
    intros Hp Ha. destruct (wf_grp_bounds S B g Hwf) as (_ & _ & Hp0 & Hh & _).
    unfold g_end_it, g_end_it_g. fold g_size_bytes.
    rewrite g_size_bytes_ok by (apply hdr_ok_fits || lia). cbn [gbind].
    unfold it_at. do 2 f_equal. apply padd_eq; [ring|exact Ha].
  Qed.

  (* operator[](pos), front(), back() denote entries pos, 0, numInGroup-1,
     which start at data start + i * wire blockLength *)
  Lemma g_at_ok pos :
    0 <= pos < g_ng g -> pos * g_bl g < 2 ^ 63 ->
    tmin I64 <= g_ptr g + g_hdr g + pos * g_bl g <= tmax I64 ->
    g_at chk S B g pos = GOk (g_ptr g + g_hdr g + pos * g_bl g).
  Proof.
    intros Hpos Hp Ha. destruct (wf_grp_bounds S B g Hwf) as (_ & Hbl' & _).
    pose proof Hwf as (HS & HB & Hng & Hbl & Hhd & Hb).
    assert (Hps : in_range S pos = true)
      by (apply (in_range_uns_mono S pos (g_ng g)); assumption || lia).
    unfold g_at, ccast. rewrite (wrap_id S pos Hps), gassert_true
      by (rewrite hdr_ok_fits; apply Z.ltb_lt, Hpos).
    rewrite cmul_size_t_cast by (split; [apply Z.mul_nonneg_nonneg|]; lia).
    cbn [of_opt gbind it_deref i_ptr]. unfold g_begin_ptr.
    rewrite (padd_id (g_ptr g)) by exact Hb. rewrite padd_id by exact Ha. reflexivity.
  Qed.

  Lemma g_front_ok : 0 < g_ng g -> g_front chk S B g = GOk (g_ptr g + g_hdr g).
  Proof.
    intros Hne. unfold g_front. rewrite (gassert_true _ _ _ (nonempty_ok Hne)), g_begin_ok.
    cbn. f_equal. ring.
  Qed.

  Lemma g_back_ok :
    0 < g_ng g -> g_ng g * g_bl g < 2 ^ 63 ->
    tmin I64 <= g_ptr g + g_hdr g + g_ng g * g_bl g <= tmax I64 ->
    g_back chk S B g = GOk (g_ptr g + g_hdr g + (g_ng g - 1) * g_bl g).
  Proof.
    intros Hne Hp Ha. unfold g_back, g_back_g. fold g_end_it.
    rewrite (gassert_true _ _ _ (nonempty_ok Hne)), g_end_it_ok by assumption. cbn [gbind].
    destruct (wf_grp_bounds S B g Hwf) as (Hng' & Hbl' & _ & _ & Hb'). apply i64_range in Ha.
    pose proof Hwf as (HS & HB & Hng & Hbl & _).
    pose proof (mul_between (g_ng g - 1) (g_ng g) (g_bl g)).
    rewrite it_dec_at; try assumption; [reflexivity|].
    apply step_ok_intro; [exact Hng| |exact Hp|lia|lia].
    apply (in_range_uns_mono S _ (g_ng g)); assumption || lia.
  Qed.
End FlatGroup.

(* begin() + size() == end(): same position, same index, compares equal *)
Theorem begin_plus_size chk S B g : wf_grp S B g -> fits chk S B g ->
  g_ng g * g_bl g < 2 ^ 63 ->
  tmin I64 <= g_ptr g + g_hdr g + g_ng g * g_bl g <= tmax I64 ->
  in_range (dty S) (g_ng g) = true ->
  exists b e,
    g_begin chk S B g = GOk b /\ g_end_it chk S B g = GOk e /\
    it_plus S B b (g_ng g) = GOk e /\
    i_ptr e = g_ptr g + g_hdr g + g_ng g * g_bl g /\ i_idx e = g_ng g /\
    it_diff S e b = GOk (g_ng g).
Proof.
  intros Hwf Hf Hp Ha Hd.
  exists (it_at (g_ptr g + g_hdr g) (g_bl g) (g_end g) 0),
         (it_at (g_ptr g + g_hdr g) (g_bl g) (g_end g) (g_ng g)).
  rewrite g_begin_ok, g_end_it_ok by assumption.
  destruct (wf_grp_bounds S B g Hwf) as (Hng' & _).
  destruct Hwf as (HS & HB & Hng & Hbl & Hhd & Hb).
  assert (H0 : in_range S 0 = true) by (apply (in_range_uns_mono S 0 (g_ng g)); assumption || lia).
  repeat apply conj; try reflexivity.
  - apply (it_plus_at S B _ _ _ HS HB Hbl 0 (g_ng g) Hd). cbn [Z.add].
    repeat split; try assumption; lia.
  - rewrite distance_is_index_diff; rewrite ?Z.sub_0_r; auto.
Qed.

Theorem entry_i_address chk S B g : wf_grp S B g -> fits chk S B g ->
  g_ng g * g_bl g < 2 ^ 63 ->
  tmin I64 <= g_ptr g + g_hdr g + g_ng g * g_bl g <= tmax I64 ->
  let data := g_ptr g + g_hdr g in
  (forall pos, 0 <= pos < g_ng g -> g_at chk S B g pos = GOk (data + pos * g_bl g)) /\
  (0 < g_ng g -> g_front chk S B g = GOk data /\
                 g_back chk S B g = GOk (data + (g_ng g - 1) * g_bl g)) /\
  (forall k, Z.of_nat k <= g_ng g ->
     gbind (g_begin chk S B g) (it_inc_n chk S B k)
       = GOk (it_at data (g_bl g) (g_end g) (Z.of_nat k))).
Proof.
  intros Hwf Hf Hp Ha data.
  destruct (wf_grp_bounds S B g Hwf) as (Hng' & Hbl' & _ & Hh & Hb').
  pose proof Hwf as (HS & HB & Hng & Hbl & _).
  pose proof (proj1 (i64_range _) Ha) as Ha'.
  split; [|split].
  - intros pos Hpos. pose proof (mul_between pos (g_ng g) (g_bl g)).
    apply g_at_ok; try assumption; [|apply i64_range]; lia.
  - intros Hne. split; [apply g_front_ok|apply g_back_ok]; assumption.
  - intros k Hk. pose proof (mul_between (Z.of_nat k) (g_ng g) (g_bl g)).
    rewrite g_begin_ok by assumption. cbn [gbind].
    apply (it_inc_n_at S B data (g_bl g) (g_end g) HS HB Hbl chk); [|lia|lia|lia| |lia|lia].
    + apply (in_range_uns_mono S _ (g_ng g)); assumption || lia.
    + intros Hc. destruct (Hf Hc) as [Hr Hle']. fold data in Hle'. lia.
Qed.

(* the codec and the length are those of Bytes.v, up to conversion *)
Lemma enc_le_length w v : length (enc_le w v) = w.
Proof. exact (length_enc_le w v). Qed.

Lemma dec_enc_le w v : 0 <= v < 256 ^ Z.of_nat w -> dec_le (enc_le w v) = v.
Proof. intros H. etransitivity; [exact (dec_le_enc_le w v)|apply Z.mod_small, H]. Qed.

Lemma blen_app a b : blen (a ++ b) = blen a + blen b.
Proof. exact (len_app a b). Qed.

Lemma blen_nonneg a : 0 <= blen a.
Proof. exact (len_nonneg a). Qed.

Lemma blen_enc_le w v : blen (enc_le w v) = Z.of_nat w.
Proof. unfold blen. rewrite enc_le_length. reflexivity. Qed.

Lemma slice_app_l l post off n :
  off + Z.of_nat n <= blen l -> slice (l ++ post) off n = slice l off n.
Proof.
  intros Hn. unfold slice. rewrite blen_app. pose proof (blen_nonneg post).
  destruct (Z.ltb_spec off 0); [reflexivity|]. cbn [orb].
  destruct (Z.ltb_spec (blen l + blen post) (off + Z.of_nat n)); [lia|].
  destruct (Z.ltb_spec (blen l) (off + Z.of_nat n)); [lia|].
  f_equal. rewrite skipn_app, firstn_app.
  replace (n - length (skipn (Z.to_nat off) l))%nat with 0%nat
    by (rewrite skipn_length; unfold blen in Hn; lia).
  apply app_nil_r.
Qed.

Lemma slice_app_r pre rest off n :
  blen pre <= off -> slice (pre ++ rest) off n = slice rest (off - blen pre) n.
Proof.
  intros Ho. unfold slice. rewrite blen_app. pose proof (blen_nonneg pre).
  destruct (Z.ltb_spec off 0); [lia|]. destruct (Z.ltb_spec (off - blen pre) 0); [lia|].
  cbn [orb].
  destruct (Z.ltb_spec (blen pre + blen rest) (off + Z.of_nat n)),
           (Z.ltb_spec (blen rest) (off - blen pre + Z.of_nat n)); [reflexivity|lia|lia|].
  do 2 f_equal. unfold blen in *.
  rewrite skipn_app, skipn_all2 by lia. cbn [app]. f_equal. lia.
Qed.

Lemma slice_all l n : length l = n -> slice l 0 n = Some l.
Proof.
  intros <-. unfold slice, blen. cbn [Z.ltb Z.compare orb Z.add].
  rewrite Z.ltb_irrefl. cbn [Z.to_nat skipn]. rewrite firstn_all. reflexivity.
Qed.

Lemma rd_some_bounds t l off v : rd t l off = Some v -> 0 <= off /\ off + wsize t <= blen l.
Proof.
  unfold rd, slice, wsize.
  destruct (Z.ltb_spec off 0); cbn [orb]; [discriminate|].
  destruct (Z.ltb_spec (blen l) (off + Z.of_nat (wbytes t))); [discriminate|]. intros _. lia.
Qed.

Lemma rd_embed t pre l post off v :
  rd t l off = Some v -> rd t (pre ++ l ++ post) (blen pre + off) = Some v.
Proof.
  intros Hr. destruct (rd_some_bounds t l off v Hr) as [Ho Hn]. unfold rd, wsize in *.
  rewrite slice_app_r by lia. replace (blen pre + off - blen pre) with off by ring.
  rewrite slice_app_l by exact Hn. exact Hr.
Qed.

Lemma rd_at t buf pre v post off :
  buf = pre ++ enc_le (wbytes t) v ++ post -> off = blen pre ->
  is_uns t = true -> in_range t v = true -> rd t buf off = Some v.
Proof.
  intros -> -> Hu Hr. rewrite <- (Z.add_0_r (blen pre)). apply rd_embed.
  unfold rd. rewrite slice_all by apply enc_le_length. rewrite dec_enc_le; [reflexivity|].
  replace (256 ^ Z.of_nat (wbytes t)) with (2 ^ bits t)
    by (destruct t; try discriminate Hu; reflexivity).
  apply uns_range; assumption.
Qed.

(* replacing [old] by [new] of the same length does not change what is read
   before or after it *)
Lemma rd_frame t pre old new post off :
  length old = length new ->
  (off + wsize t <= blen pre \/ blen pre + blen old <= off) ->
  rd t (pre ++ new ++ post) off = rd t (pre ++ old ++ post) off.
Proof.
  intros Hlen Hc. assert (Hb : blen new = blen old) by (unfold blen; lia).
  pose proof (blen_nonneg old). unfold rd, wsize in *. destruct Hc as [Hc|Hc].
  - rewrite !(slice_app_l pre) by exact Hc. reflexivity.
  - rewrite !(slice_app_r pre), (slice_app_r new), (slice_app_r old), Hb by lia. reflexivity.
Qed.

Lemma wr_app t pre old post v : length old = wbytes t ->
  wr t (pre ++ old ++ post) (blen pre) v = Some (pre ++ enc_le (wbytes t) v ++ post).
Proof.
  intros Hl. unfold wr, wsize. rewrite !blen_app. unfold blen at 3. rewrite Hl.
  pose proof (blen_nonneg pre). pose proof (blen_nonneg post).
  destruct (Z.ltb_spec (blen pre) 0); [lia|].
  destruct (Z.ltb_spec (blen pre + (Z.of_nat (wbytes t) + blen post))
                       (blen pre + Z.of_nat (wbytes t))); [lia|]. cbn [orb].
  rewrite <- (splice_app_mid pre old post (enc_le (wbytes t) v))
    by (rewrite enc_le_length; symmetry; exact Hl).
  unfold Bytes.splice. rewrite (enc_le_length (wbytes t) v). reflexivity.
Qed.

(* a dimension layout: blockLength and numInGroup lie inside the composite and
   do not overlap -- in any order, with any padding and any further members
   (numGroups, numVarDataFields, ...) *)
Definition wf_hlay (S B : ity) (L : hlay) : Prop :=
  0 <= h_bl L /\ 0 <= h_ng L /\
  h_bl L + wsize B <= h_size L /\ h_ng L + wsize S <= h_size L /\
  (h_bl L + wsize B <= h_ng L \/ h_ng L + wsize S <= h_bl L).

(* such a composite is at least sizeof(blockLength) + sizeof(numInGroup) long *)
Lemma wf_hlay_size S B L : wf_hlay S B L -> wsize B + wsize S <= h_size L.
Proof.
  intros (H1 & H2 & H3 & H4 & H5). pose proof (wsize_pos S). pose proof (wsize_pos B).
  destruct H5; lia.
Qed.

(* the two-member composite is the special case *)
Lemma std_hlay_wf S B : wf_hlay S B (std_hlay S B) /\ h_size (std_hlay S B) = hdr_size S B.
Proof.
  unfold wf_hlay, std_hlay, hdr_size. cbn [h_size h_bl h_ng].
  pose proof (wsize_pos S). pose proof (wsize_pos B). repeat split; lia.
Qed.

Lemma two_member_header_instance S B bl ng :
  is_uns S = true -> is_uns B = true -> in_range B bl = true -> in_range S ng = true ->
  (wf_hlay S B (std_hlay S B) /\ h_size (std_hlay S B) = hdr_size S B) /\
  blen (enc_dim S B bl ng) = h_size (std_hlay S B) /\
  rd B (enc_dim S B bl ng) (h_bl (std_hlay S B)) = Some bl /\
  rd S (enc_dim S B bl ng) (h_ng (std_hlay S B)) = Some ng.
Proof.
  intros HS HB Hbl Hng. split; [exact (std_hlay_wf S B)|].
  unfold enc_dim, std_hlay, hdr_size. cbn [h_size h_bl h_ng]. split; [|split].
  - rewrite blen_app, !blen_enc_le. reflexivity.
  - apply (rd_at B _ [] bl (enc_le (wbytes S) ng)); [reflexivity|reflexivity|exact HB|exact Hbl].
  - apply (rd_at S _ (enc_le (wbytes B) bl) ng []);
      [rewrite app_nil_r; reflexivity|rewrite blen_enc_le; reflexivity|exact HS|exact Hng].
Qed.

(* a group view on a header [hdr] that lies somewhere in a buffer shorter
   than 2^63 decodes the two members at their offsets *)
Lemma read_grp_embed chk S B L pre hdr post e bl ng :
  blen hdr = h_size L -> rd B hdr (h_bl L) = Some bl -> rd S hdr (h_ng L) = Some ng ->
  blen pre + h_size L < 2 ^ 63 ->
  (chk = true -> blen pre + h_size L <= e /\ e - blen pre < 2 ^ 64) ->
  read_grp chk S B L (pre ++ hdr ++ post) (blen pre) e
    = GOk (mkGrp (blen pre) e (h_size L) bl ng).
Proof.
  intros Hl HrB HrS H63 Hchk.
  destruct (rd_some_bounds B hdr _ _ HrB) as [Hb0 Hb1].
  destruct (rd_some_bounds S hdr _ _ HrS) as [Hn0 Hn1].
  pose proof (wsize_pos S). pose proof (wsize_pos B). pose proof (blen_nonneg pre).
  unfold read_grp. rewrite size_check_true by (intros Hc; destruct (Hchk Hc); lia).
  rewrite !padd_id by (apply i64_range; lia).
  rewrite (rd_embed B pre hdr post _ _ HrB), (rd_embed S pre hdr post _ _ HrS). reflexivity.
Qed.

(* resize(count) / clear(): exactly the numInGroup bytes of the header are
   rewritten -- wherever numInGroup lies in the dimension composite --, size()
   afterwards is count and blockLength is unchanged.  (No separate bound on
   the header size is needed: the header lies in a buffer shorter than 2^63.) *)
Theorem resize_frame chk S B L buf p e count :
  is_uns S = true -> is_uns B = true -> wf_hlay S B L ->
  0 <= p -> p + h_size L <= blen buf -> blen buf < 2 ^ 63 ->
  (chk = true -> 0 <= e - p < 2 ^ 64 /\ h_size L <= e - p) ->
  exists pre old post,
    buf = pre ++ old ++ post /\ blen pre = p + h_ng L /\ length old = wbytes S /\
    let buf' := pre ++ enc_le (wbytes S) (ccast S count) ++ post in
    g_resize chk S B L buf p e count = GOk buf' /\
    g_clear chk S B L buf p e = GOk (pre ++ enc_le (wbytes S) 0 ++ post) /\
    (forall g, read_grp chk S B L buf p e = GOk g ->
       read_grp chk S B L buf' p e = GOk (mkGrp p e (h_size L) (g_bl g) (ccast S count))).
Proof.
  intros HS HB (Hb0 & Hn0 & Hbin & Hnin & Hdisj) Hp Hlen H63 Hchk.
  pose proof (wsize_pos S) as HwS. pose proof (wsize_pos B) as HwB.
  destruct (buf_split buf (p + h_ng L) (wsize S)) as (pre & old & post & -> & Hpre & Hold);
    [apply in_buf_iff; change (Bytes.len buf) with (blen buf); lia|].
  change (blen pre = p + h_ng L) in Hpre. apply Nat2Z.inj in Hold.
  assert (Hsc : size_check chk p e (h_size L) = true)
    by (apply size_check_true; intros Hc; destruct (Hchk Hc); lia).
  assert (Hng : padd p (h_ng L) = blen pre) by (rewrite Hpre; apply padd_id, i64_range; lia).
  assert (Hres : forall c, g_resize chk S B L (pre ++ old ++ post) p e c
                           = GOk (pre ++ enc_le (wbytes S) (ccast S c) ++ post)).
  { intros c. unfold g_resize. rewrite Hsc, Hng, wr_app by exact Hold. reflexivity. }
  exists pre, old, post. repeat apply conj; try reflexivity; try assumption.
  - apply Hres.
  - unfold g_clear. rewrite Hres. replace (ccast S 0) with 0 by (destruct S; reflexivity). reflexivity.
  - (* blockLength lies before or after the rewritten bytes *)
    intros g. assert (Hbo : blen old = wsize S) by (unfold blen, wsize; rewrite Hold; reflexivity).
    unfold read_grp. rewrite Hsc, Hng, padd_id by (apply i64_range; lia).
    rewrite (rd_frame B pre old (enc_le _ (ccast S count))) by (rewrite ?enc_le_length; auto; lia).
    rewrite (rd_at S _ pre (ccast S count) post _ eq_refl eq_refl HS (wrap_range S count)).
    destruct (rd B _ _) as [bl|]; [|discriminate].
    destruct (rd S _ _); [|discriminate]. cbn [of_opt gbind]. intros [= <-]. reflexivity.
Qed.

Corollary resize_frame_std chk S B buf p e count :
  is_uns S = true -> is_uns B = true ->
  0 <= p -> p + hdr_size S B <= blen buf -> blen buf < 2 ^ 63 ->
  (chk = true -> 0 <= e - p < 2 ^ 64 /\ hdr_size S B <= e - p) ->
  exists pre old post,
    buf = pre ++ old ++ post /\ blen pre = p + wsize B /\ length old = wbytes S /\
    let buf' := pre ++ enc_le (wbytes S) (ccast S count) ++ post in
    g_resize chk S B (std_hlay S B) buf p e count = GOk buf' /\
    g_clear chk S B (std_hlay S B) buf p e = GOk (pre ++ enc_le (wbytes S) 0 ++ post) /\
    (forall g, read_grp chk S B (std_hlay S B) buf p e = GOk g ->
       read_grp chk S B (std_hlay S B) buf' p e
         = GOk (mkGrp p e (hdr_size S B) (g_bl g) (ccast S count))).
Proof.
  intros HS HB. apply (resize_frame chk S B (std_hlay S B) buf p e count HS HB).
  apply std_hlay_wf.
Qed.

Definition wf_nentry (bl : Z) (en : nentry) : Prop :=
  blen (ne_block en) = bl /\ in_range U16 (ne_ibl en) = true /\
  in_range U16 (ne_icnt en) = true /\ blen (ne_ipay en) = ne_icnt en * ne_ibl en.

(* specification: entry i starts where entry i-1 ends *)
Fixpoint starts_from (a : Z) (es : list nentry) : list Z :=
  match es with
  | [] => []
  | en :: t => a :: starts_from (a + blen (enc_entry en)) t
  end.

Lemma blen_enc_entry bl en : wf_nentry bl en ->
  blen (enc_entry en) = bl + 4 + ne_icnt en * ne_ibl en.
Proof.
  intros (Hb & _ & _ & Hp). unfold enc_entry.
  rewrite !blen_app, !blen_enc_le, Hb, Hp. lia.
Qed.

(* sbepp::size_bytes(entry): the inner group's header follows the block, and
   the entry ends where the inner group does *)
Lemma entry_size_ok chk pre en post bl e :
  wf_nentry bl en -> 0 <= bl -> blen (pre ++ enc_entry en ++ post) < 2 ^ 63 ->
  (chk = true -> blen pre + blen (enc_entry en) <= e /\ e < 2 ^ 63) ->
  entry_size chk (pre ++ enc_entry en ++ post) (blen pre) bl e = GOk (blen (enc_entry en)).
Proof.
  intros Hwf Hbl H63 Hchk. rewrite !blen_app in H63.
  pose proof (blen_enc_entry bl en Hwf) as Hlen. destruct Hwf as (Hb & Hibl & Hicnt & Hpay).
  pose proof (blen_nonneg pre). pose proof (blen_nonneg post).
  pose proof (blen_nonneg (ne_ipay en)) as Hp0. rewrite Hpay in Hp0.
  destruct (two_member_header_instance U16 U16 (ne_ibl en) (ne_icnt en)) as (_ & Hl & HrB & HrS);
    try reflexivity; try assumption.
  unfold entry_size. rewrite padd_id by (apply i64_range; lia).
  replace (pre ++ enc_entry en ++ post)
    with ((pre ++ ne_block en) ++ enc_dim U16 U16 (ne_ibl en) (ne_icnt en) ++ ne_ipay en ++ post)
    by (unfold enc_entry, enc_dim; rewrite <- !app_assoc; reflexivity).
  rewrite <- Hb, <- blen_app.
  rewrite (read_grp_embed chk U16 U16 _ _ _ _ e _ _ Hl HrB HrS);
    rewrite blen_app, Hb; change (h_size (std_hlay U16 U16)) with 4.
  2: lia. 2: intros Hc; destruct (Hchk Hc); lia.
  cbn [gbind]. rewrite g_size_bytes_ok; cbn [g_hdr g_ng g_bl]; [| |lia..].
  2: apply size_check_true; intros Hc; destruct (Hchk Hc); cbn [g_ptr g_end g_hdr]; lia.
  cbn [gbind].
  rewrite padd_id by (apply i64_range; lia). unfold ccast.
  replace (blen pre + bl + (4 + ne_icnt en * ne_ibl en) - blen pre) with (blen (enc_entry en)) by lia.
  rewrite (wrap_id' PTRDIFF_T), (wrap_id' SIZE_T) by (apply i64_range || apply u64_range; lia).
  reflexivity.
Qed.

(* one ++ of the forward iterator over one encoded entry *)
Lemma n_inc_entry chk S B buf pre en post bl idx e :
  buf = pre ++ enc_entry en ++ post -> wf_nentry bl en ->
  is_uns S = true -> in_range S idx = true -> in_range S (idx + 1) = true ->
  0 <= bl -> blen buf < 2 ^ 63 ->
  (chk = true -> blen pre + blen (enc_entry en) <= e /\ e < 2 ^ 63) ->
  n_inc chk S B buf (mkIter (blen pre) bl idx e)
    = GOk (mkIter (blen pre + blen (enc_entry en)) bl (idx + 1) e).
Proof.
  intros -> Hwf HS Hidx Hidx1 Hbl H63 Hchk.
  unfold n_inc. cbn [i_ptr i_bl i_idx i_end]. rewrite entry_size_ok by assumption. cbn [gbind].
  rewrite !blen_app in H63. pose proof (blen_nonneg pre). pose proof (blen_nonneg post).
  pose proof (blen_nonneg (enc_entry en)).
  rewrite size_check_true by (intros Hc; destruct (Hchk Hc); lia).
  rewrite idx_inc_ok by assumption. cbn [gbind].
  rewrite padd_id by (apply i64_range; lia). reflexivity.
Qed.

Lemma n_walk_chain chk S B bl e post n :
  is_uns S = true -> in_range S n = true -> 0 <= bl -> forall es buf pre idx,
  buf = pre ++ concat (map enc_entry es) ++ post -> Forall (wf_nentry bl) es ->
  0 <= idx -> idx + Z.of_nat (length es) = n -> blen buf < 2 ^ 63 ->
  (chk = true -> blen pre + blen (concat (map enc_entry es)) <= e /\ e < 2 ^ 63) ->
  n_walk chk S B buf (length es) n (mkIter (blen pre) bl idx e) = GOk (starts_from (blen pre) es).
Proof.
  intros HS Hn Hbl. induction es as [|en es IH]; intros buf pre idx Hbuf Hwf Hidx Hlen H63 Hchk.
  - reflexivity.
  - cbn [length n_walk i_idx starts_from map concat] in *. rewrite Nat2Z.inj_succ in Hlen.
    destruct (Z.eqb_spec idx n); [lia|]. apply Forall_cons_iff in Hwf as [Hen Hes].
    rewrite blen_app in Hchk. pose proof (blen_nonneg (concat (map enc_entry es))).
    rewrite (n_inc_entry chk S B _ pre en (concat (map enc_entry es) ++ post) bl idx e);
      [|rewrite Hbuf, <- app_assoc; reflexivity|exact Hen|exact HS
       |apply (in_range_uns_mono S _ n); assumption || lia..|exact Hbl|exact H63
       |intros Hc; destruct (Hchk Hc); lia].
    cbn [gbind]. rewrite <- blen_app.
    rewrite (IH buf (pre ++ enc_entry en) (idx + 1));
      [|rewrite Hbuf, <- !app_assoc; reflexivity|exact Hes|lia|lia|exact H63|].
    + rewrite blen_app. reflexivity.
    + rewrite blen_app. intros Hc. destruct (Hchk Hc). lia.
Qed.

(* forward iteration over a nested group visits entry i where entry i-1 ends,
   the first one right after the dimension composite, whatever its layout [L]
   and whatever else it holds: [hdr] is ANY sequence of [h_size L] bytes from
   which blockLength and numInGroup are read back at their offsets; end()
   carries index numInGroup.  (No separate bound on the header size is needed:
   the header is part of a buffer shorter than 2^63.) *)
Theorem nested_forward_chain chk S B L hdr bl es pre post e :
  let buf := pre ++ enc_nested hdr es ++ post in
  let p := blen pre in
  is_uns S = true -> is_uns B = true ->
  blen hdr = h_size L ->
  rd B hdr (h_bl L) = Some bl -> rd S hdr (h_ng L) = Some (Z.of_nat (length es)) ->
  in_range B bl = true -> in_range S (Z.of_nat (length es)) = true ->
  Forall (wf_nentry bl) es -> blen buf < 2 ^ 63 ->
  (chk = true -> p + blen (enc_nested hdr es) <= e /\ e < 2 ^ 63) ->
  n_entries chk S B L buf p e = GOk (starts_from (p + h_size L) es) /\
  n_end_idx chk S B L buf p e = GOk (Z.of_nat (length es)).
Proof.
  intros buf p HS HB Hhl HrB HrS Hbl Hng Hwf H63 Hchk.
  pose proof (uns_bound B bl HB Hbl) as Hbl'.
  pose proof (blen_nonneg pre) as Hp0. pose proof (blen_nonneg post) as Hpost0.
  pose proof (blen_nonneg (concat (map enc_entry es))) as Hc0. pose proof (blen_nonneg hdr) as Hh0.
  unfold buf, p, enc_nested in *. rewrite <- app_assoc in *. rewrite !blen_app, Hhl in *.
  unfold n_entries, n_begin, n_end_idx.
  rewrite (read_grp_embed chk S B L pre hdr _ e _ _ Hhl HrB HrS)
    by (lia || (intros Hc; destruct (Hchk Hc); lia)).
  cbn [gbind g_ng g_bl]. split; [|reflexivity].
  unfold g_begin_ptr. cbn [g_ptr g_hdr]. rewrite padd_id by (apply i64_range; lia).
  rewrite Nat2Z.id, <- Hhl, <- blen_app.
  apply (n_walk_chain chk S B bl e post _ HS Hng) with (idx := 0); [lia| |exact Hwf|lia|lia| |].
  - rewrite <- !app_assoc. reflexivity.
  - rewrite !blen_app. lia.
  - rewrite blen_app. intros Hc. destruct (Hchk Hc). lia.
Qed.

Corollary nested_forward_chain_std chk S B bl es pre post e :
  let hdr := enc_dim S B bl (Z.of_nat (length es)) in
  let buf := pre ++ enc_nested hdr es ++ post in
  let p := blen pre in
  is_uns S = true -> is_uns B = true -> in_range B bl = true ->
  in_range S (Z.of_nat (length es)) = true ->
  Forall (wf_nentry bl) es -> blen buf < 2 ^ 63 ->
  (chk = true -> p + blen (enc_nested hdr es) <= e /\ e < 2 ^ 63) ->
  n_entries chk S B (std_hlay S B) buf p e = GOk (starts_from (p + hdr_size S B) es) /\
  n_end_idx chk S B (std_hlay S B) buf p e = GOk (Z.of_nat (length es)).
Proof.
  intros hdr buf p HS HB Hbl Hng Hwf H63 Hchk.
  destruct (two_member_header_instance S B bl (Z.of_nat (length es)) HS HB Hbl Hng)
    as (_ & H1 & H2 & H3).
  apply (nested_forward_chain chk S B (std_hlay S B) hdr bl es pre post e); assumption.
Qed.

(* the code before the repair of operator+= / operator[] (GI.Legacy) violates the property *)

(* uint32 numInGroup / uint32 blockLength, blockLength 10: (begin()+2)-1 should
   be entry 1 at offset 8+10 = 18; the negative int32 n is converted to
   unsigned before the multiplication and the 32-bit product is zero-extended *)
Example legacy_plus_minus_refuted :
  gbind (Legacy.it_plus U32 U32 (it_at 8 10 0 0) 2) (fun a => Legacy.it_minus U32 U32 a 1)
    = GOk (mkIter 4294967314 10 1 0) /\
  gbind (it_plus U32 U32 (it_at 8 10 0 0) 2) (fun a => it_minus U32 U32 a 1)
    = GOk (it_at 8 10 0 1) /\ i_ptr (it_at 8 10 0 1) = 18.
Proof. vm_compute. repeat split; reflexivity. Qed.

(* uint8 numInGroup: g[128] converts 128 to difference_type int8 = -128 and
   lands before the buffer; uint16: g[32768] likewise *)
Example legacy_subscript_narrow_refuted :
  Legacy.g_at false U8 U8 (mkGrp 0 0 2 1 200) 128 = GOk (-126) /\
  g_at false U8 U8 (mkGrp 0 0 2 1 200) 128 = GOk 130 /\
  Legacy.g_at false U16 U16 (mkGrp 0 0 4 1 40000) 32768 = GOk (-32764) /\
  g_at false U16 U16 (mkGrp 0 0 4 1 40000) 32768 = GOk 32772 /\
  (* the same with a 7-byte SBE 2.0 style header (uint16/uint16 + numGroups + numVarDataFields) *)
  Legacy.g_at false U16 U16 (mkGrp 0 0 7 1 40000) 32768 = GOk (-32761) /\
  g_at false U16 U16 (mkGrp 0 0 7 1 40000) 32768 = GOk 32775.
Proof. vm_compute. repeat split; reflexivity. Qed.

(* positive n as well: int16 x uint32 is evaluated in 32 unsigned bits *)
Example legacy_subscript_wrap_refuted :
  Legacy.g_at false U16 U32 (mkGrp 0 0 6 2147483648 3) 2 = GOk 6 /\
  g_at false U16 U32 (mkGrp 0 0 6 2147483648 3) 2 = GOk 4294967302.
Proof. vm_compute. repeat split; reflexivity. Qed.

(* int32 x uint16 is evaluated in int: signed overflow *)
Example legacy_subscript_overflow_refuted :
  Legacy.g_at false U32 U16 (mkGrp 0 0 6 65535 40000) 39999 = GUB /\
  g_at false U32 U16 (mkGrp 0 0 6 65535 40000) 39999 = GOk 2621334471.
Proof. vm_compute. repeat split; reflexivity. Qed.

(* end(): numInGroup * blockLength in the promoted header types *)
Example legacy_end_refuted :
  Legacy.g_end_it false U32 U32 (mkGrp 0 0 8 65536 65536) = GOk (mkIter 8 65536 65536 0) /\
  g_end_it false U32 U32 (mkGrp 0 0 8 65536 65536) = GOk (mkIter 4294967304 65536 65536 0) /\
  Legacy.g_end_it false U16 U16 (mkGrp 0 0 4 65535 65535) = GUB /\
  g_end_it false U16 U16 (mkGrp 0 0 4 65535 65535) = GOk (mkIter 4294836229 65535 65535 0) /\
  (* 11-byte header (uint32/uint32 + numGroups + numVarDataFields) *)
  Legacy.g_end_it false U32 U32 (mkGrp 0 0 11 65536 65536) = GOk (mkIter 11 65536 65536 0) /\
  g_end_it false U32 U32 (mkGrp 0 0 11 65536 65536) = GOk (mkIter 4294967307 65536 65536 0).
Proof. vm_compute. repeat split; reflexivity. Qed.

Example plus_minus_cancel_nonvacuous :
  is_uns U32 = true /\ is_uns U32 = true /\ in_range U32 10 = true /\
  - tmax (dty U32) <= -1 <= tmax (dty U32) /\ step_ok U32 8 10 2 (2 + -1) /\
  tmin I64 <= 8 + 2 * 10 <= tmax I64 /\
  it_plus U32 U32 (it_at 8 10 0 2) (-1) = GOk (it_at 8 10 0 1) /\
  it_minus U32 U32 (it_at 8 10 0 1) (-1) = GOk (it_at 8 10 0 2).
Proof. vm_compute. repeat split; try reflexivity; discriminate. Qed.

Example minus_plus_cancel_nonvacuous :
  is_uns U8 = true /\ is_uns U64 = true /\ in_range U64 3 = true /\
  - tmax (dty U8) <= 127 <= tmax (dty U8) /\ step_ok U8 9 3 200 (200 - 127) /\
  tmin I64 <= 9 + 200 * 3 <= tmax I64 /\
  it_minus U8 U64 (it_at 9 3 0 200) 127 = GOk (it_at 9 3 0 73).
Proof. vm_compute. repeat split; try reflexivity; discriminate. Qed.

Example subscript_is_plus_nonvacuous :
  is_uns U16 = true /\ is_uns U32 = true /\ in_range U32 2147483648 = true /\
  in_range (dty U16) 2 = true /\ step_ok U16 6 2147483648 0 (0 + 2) /\
  it_subscript U16 U32 (it_at 6 2147483648 0 0) 2 = GOk 4294967302.
Proof. vm_compute. repeat split; try reflexivity; discriminate. Qed.

Example distance_is_index_diff_nonvacuous :
  is_uns U8 = true /\ in_range U8 0 = true /\ in_range U8 128 = true /\
  in_range (dty U8) (0 - 128) = true /\
  it_diff U8 (it_at 2 1 0 0) (it_at 2 1 0 128) = GOk (-128).
Proof. vm_compute. repeat split; reflexivity. Qed.

Definition ex_grp : grp := mkGrp 100 1000 2 0 255.   (* uint8/uint8, blockLength 0 *)
Definition ex_grp2 : grp := mkGrp 4 3000 3 10 200.   (* uint8/uint16, two-member header *)
(* uint8 numInGroup / uint16 blockLength + numGroups (uint16) + numVarDataFields (uint8): 6 bytes *)
Definition ex_grp3 : grp := mkGrp 4 3000 6 10 200.
(* blockLength (uint32) at offset 0, numInGroup (uint8) at offset 8: 9 bytes *)
Definition ex_grp4 : grp := mkGrp 0 100 9 7 13.

Example begin_plus_size_nonvacuous :
  wf_grp U8 U16 (mkGrp 4 1000 3 10 99) /\ fits true U8 U16 (mkGrp 4 1000 3 10 99) /\
  99 * 10 < 2 ^ 63 /\ tmin I64 <= 4 + hdr_size U8 U16 + 99 * 10 <= tmax I64 /\
  in_range (dty U8) 99 = true /\
  gbind (g_begin true U8 U16 (mkGrp 4 1000 3 10 99)) (fun b => it_plus U8 U16 b 99)
    = g_end_it true U8 U16 (mkGrp 4 1000 3 10 99) /\
  (* a 6-byte header: the view must cover 4 + 6 + 990 *)
  wf_grp U8 U16 (mkGrp 4 1000 6 10 99) /\ fits true U8 U16 (mkGrp 4 1000 6 10 99) /\
  tmin I64 <= 4 + 6 + 99 * 10 <= tmax I64 /\
  gbind (g_begin true U8 U16 (mkGrp 4 1000 6 10 99)) (fun b => it_plus U8 U16 b 99)
    = g_end_it true U8 U16 (mkGrp 4 1000 6 10 99) /\
  g_end_it true U8 U16 (mkGrp 4 1000 6 10 99) = GOk (mkIter 1000 10 99 1000) /\
  g_end_it true U8 U16 (mkGrp 4 999 6 10 99) = GOk (mkIter 1000 10 99 999) /\
  g_begin true U8 U16 (mkGrp 4 9 6 10 99) = GAssert.
Proof.
  vm_compute. repeat split; try reflexivity; try discriminate.
Qed.

Example entry_i_address_nonvacuous :
  wf_grp U8 U16 ex_grp2 /\ fits true U8 U16 ex_grp2 /\
  g_ng ex_grp2 * g_bl ex_grp2 < 2 ^ 63 /\
  tmin I64 <= g_ptr ex_grp2 + hdr_size U8 U16 + g_ng ex_grp2 * g_bl ex_grp2 <= tmax I64 /\
  g_at true U8 U16 ex_grp2 199 = GOk (4 + 3 + 199 * 10) /\
  g_back true U8 U16 ex_grp2 = GOk (4 + 3 + 199 * 10) /\
  wf_grp U8 U8 ex_grp /\ fits true U8 U8 ex_grp /\
  g_at true U8 U8 ex_grp 254 = GOk 102 /\
  g_at true U8 U8 ex_grp 255 = GAssert /\
  (* larger headers: the data start is g_ptr + g_hdr, not g_ptr + sizeof(bl) + sizeof(n) *)
  wf_grp U8 U16 ex_grp3 /\ fits true U8 U16 ex_grp3 /\
  g_at true U8 U16 ex_grp3 199 = GOk (4 + 6 + 199 * 10) /\
  g_front true U8 U16 ex_grp3 = GOk 10 /\
  g_back true U8 U16 ex_grp3 = GOk (4 + 6 + 199 * 10) /\
  wf_grp U8 U32 ex_grp4 /\ fits true U8 U32 ex_grp4 /\
  g_at true U8 U32 ex_grp4 12 = GOk (9 + 12 * 7) /\
  g_size_bytes true U8 U32 ex_grp4 = GOk (9 + 13 * 7).
Proof.
  vm_compute. repeat split; try reflexivity; try discriminate.
Qed.

Definition ex_entries : list nentry :=
  [mkNEntry [7; 7; 7] 2 1 [1; 2]; mkNEntry [8; 8; 8] 1 3 [4; 5; 6]; mkNEntry [9; 9; 9] 5 0 []].

Example nested_forward_chain_nonvacuous :
  let hdr := enc_dim U8 U32 3 3 in
  let buf := [0; 0] ++ enc_nested hdr ex_entries ++ [255] in
  is_uns U8 = true /\ is_uns U32 = true /\ in_range U32 3 = true /\
  in_range U8 (Z.of_nat (length ex_entries)) = true /\
  Forall (wf_nentry 3) ex_entries /\ blen buf < 2 ^ 63 /\
  (2 + blen (enc_nested hdr ex_entries) <= blen buf - 1 /\ blen buf - 1 < 2 ^ 63) /\
  n_entries true U8 U32 (std_hlay U8 U32) buf 2 (blen buf - 1) = GOk [7; 16; 26] /\
  starts_from (2 + hdr_size U8 U32) ex_entries = [7; 16; 26].
Proof.
  intros hdr buf. repeat apply conj.
  5: repeat constructor.
  all: vm_compute; try reflexivity; discriminate.
Qed.

(* an 11-byte dimension composite: numInGroup (uint8) at offset 0, three bytes
   of padding, blockLength (uint32) at offset 4, then numGroups (uint16) and
   numVarDataFields (uint8) with arbitrary contents *)
Example nested_forward_chain_nonvacuous_layout :
  let L := mkHlay 11 4 0 in
  let hdr := [3; 170; 170; 170; 3; 0; 0; 0; 187; 187; 204] in
  let buf := [0; 0] ++ enc_nested hdr ex_entries ++ [255] in
  wf_hlay U8 U32 L /\ blen hdr = h_size L /\
  rd U32 hdr (h_bl L) = Some 3 /\ rd U8 hdr (h_ng L) = Some (Z.of_nat (length ex_entries)) /\
  blen buf < 2 ^ 63 /\
  (2 + blen (enc_nested hdr ex_entries) <= blen buf - 1 /\ blen buf - 1 < 2 ^ 63) /\
  n_entries true U8 U32 L buf 2 (blen buf - 1) = GOk [13; 22; 32] /\
  starts_from (2 + h_size L) ex_entries = [13; 22; 32] /\
  (* the two-member reading of the same bytes is something else *)
  n_entries true U8 U32 (std_hlay U8 U32) buf 2 (blen buf - 1) <> GOk [13; 22; 32].
Proof.
  intros L hdr buf. unfold wf_hlay.
  repeat apply conj; try (vm_compute; try reflexivity; discriminate).
  right. vm_compute. discriminate.
Qed.

Example resize_frame_nonvacuous :
  is_uns U16 = true /\ is_uns U8 = true /\ 0 <= 1 /\
  1 + hdr_size U16 U8 <= blen [9; 5; 1; 2; 7] /\ blen [9; 5; 1; 2; 7] < 2 ^ 63 /\
  (0 <= 4 - 1 < 2 ^ 64 /\ hdr_size U16 U8 <= 4 - 1) /\
  g_resize true U16 U8 (std_hlay U16 U8) [9; 5; 1; 2; 7] 1 4 65535 = GOk [9; 5; 255; 255; 7] /\
  g_clear true U16 U8 (std_hlay U16 U8) [9; 5; 1; 2; 7] 1 4 = GOk [9; 5; 0; 0; 7] /\
  g_resize true U16 U8 (std_hlay U16 U8) [9; 5; 1; 2; 7] 1 3 0 = GAssert.
Proof. vm_compute. repeat split; try reflexivity; discriminate. Qed.

(* numInGroup (uint16) BEFORE blockLength (uint8), and blockLength at 0 /
   numInGroup at 8 with padding in between: only the numInGroup bytes change *)
Example resize_frame_nonvacuous_layout :
  wf_hlay U16 U8 (mkHlay 3 2 0) /\
  g_resize true U16 U8 (mkHlay 3 2 0) [9; 1; 2; 5; 7] 1 4 65535 = GOk [9; 255; 255; 5; 7] /\
  g_clear true U16 U8 (mkHlay 3 2 0) [9; 1; 2; 5; 7] 1 4 = GOk [9; 0; 0; 5; 7] /\
  g_resize true U16 U8 (mkHlay 3 2 0) [9; 1; 2; 5; 7] 1 3 0 = GAssert /\
  wf_hlay U16 U8 (mkHlay 10 0 8) /\
  g_resize true U16 U8 (mkHlay 10 0 8) [5; 1; 2; 3; 4; 5; 6; 7; 8; 9; 7] 0 10 258
    = GOk [5; 1; 2; 3; 4; 5; 6; 7; 2; 1; 7] /\
  read_grp true U16 U8 (mkHlay 10 0 8) [5; 1; 2; 3; 4; 5; 6; 7; 2; 1; 7] 0 10
    = GOk (mkGrp 0 10 10 5 258).
Proof.
  unfold wf_hlay. repeat apply conj; try (vm_compute; try reflexivity; discriminate).
  - right. vm_compute. discriminate.
  - left. vm_compute. discriminate.
Qed.
