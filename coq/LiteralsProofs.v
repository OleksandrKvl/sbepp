(* LiteralsProofs.v — proofs about Literals.v (C07, parts 1 and 3). *)
From Coq Require Import ZArith NArith List Bool Ascii String Lia.
From Coq Require Import DecimalString DecimalFacts DecimalPos DecimalN.
From Sbepp Require Import CInt CIntFacts Bytes Literals.
Import ListNotations.
Local Open Scope Z_scope.

Lemma all_chars_app f a b : all_chars f (a ++ b) = all_chars f a && all_chars f b.
Proof. induction a as [|c a IH]; cbn; [reflexivity|]. rewrite IH, andb_assoc. reflexivity. Qed.

Lemma string_app_nil_r s : (s ++ "")%string = s.
Proof. induction s as [|c s IH]; cbn; [reflexivity|]. now rewrite IH. Qed.

Lemma string_app_assoc a b c : ((a ++ b) ++ c)%string = (a ++ (b ++ c))%string.
Proof. induction a as [|x a IH]; cbn; [reflexivity|]. now rewrite IH. Qed.

Lemma string_length_app a b : String.length (a ++ b) = (String.length a + String.length b)%nat.
Proof. induction a as [|x a IH]; cbn; [reflexivity|]. now rewrite IH. Qed.

Lemma rev_app_app s a b :
  string_rev_app (string_rev_app s a) b = string_rev_app a (s ++ b)%string.
Proof.
  revert a b. induction s as [|c s IH]; intros a b; cbn; [reflexivity|].
  rewrite IH. reflexivity.
Qed.

Lemma rev_rev s : string_rev_app (string_rev_app s EmptyString) EmptyString = s.
Proof. rewrite rev_app_app. apply string_app_nil_r. Qed.

Lemma range_le_I64 t v : is_signed t = true -> in_range t v = true -> in_range I64 v = true.
Proof. intros Hs. apply fits_in_range. destruct t; try discriminate Hs; reflexivity. Qed.

Lemma in_range_widen_unsigned t v : 0 <= v -> in_range t v = true -> in_range U64 v = true.
Proof.
  intros Hv H. apply in_range_u64. apply in_range_iff in H. unfold tmax in H.
  pose proof (bits_le_64 t) as B. destruct (is_signed t); [rewrite pow_bits in B|]; lia.
Qed.

Lemma INT64_MAX_eq : INT64_MAX = 9223372036854775807.
Proof. reflexivity. Qed.

Lemma sou_digits d : all_chars is_digit (NilEmpty.string_of_uint d) = true.
Proof. induction d; cbn [NilEmpty.string_of_uint all_chars]; rewrite ?IHd; reflexivity. Qed.

Lemma to_uint_nonnil n : N.to_uint n <> Decimal.Nil.
Proof. destruct n; cbn; [discriminate|apply Unsigned.to_uint_nonnil]. Qed.

Lemma render_N_eq n : render_N n = NilEmpty.string_of_uint (N.to_uint n).
Proof.
  unfold render_N, NilZero.string_of_uint. pose proof (to_uint_nonnil n).
  destruct (N.to_uint n); congruence.
Qed.

Lemma render_N_digits n : all_chars is_digit (render_N n) = true.
Proof. rewrite render_N_eq. apply sou_digits. Qed.

Lemma parse_render n : parse_digits (render_N n) = Some (Z.of_N n).
Proof.
  unfold parse_digits, render_N. rewrite NilZero.usu by apply to_uint_nonnil.
  now rewrite DecimalN.Unsigned.of_to.
Qed.

Lemma pos_to_uint_norm p : Decimal.unorm (Pos.to_uint p) = Pos.to_uint p.
Proof.
  rewrite <- (DecimalPos.Unsigned.to_of (Pos.to_uint p)).
  rewrite DecimalPos.Unsigned.of_to. reflexivity.
Qed.

Lemma pos_to_uint_head p d : Pos.to_uint p <> Decimal.D0 d.
Proof.
  intros E. pose proof (pos_to_uint_norm p) as H. rewrite E in H.
  rewrite unorm_D0 in H. unfold Decimal.unorm in H.
  destruct (Decimal.nzhead d) eqn:Hn;
    try (apply (nzhead_nonzero d d); congruence).
  injection H as <-. apply (Unsigned.to_uint_nonzero p). exact E.
Qed.

Definition head_not_zero (s : string) : Prop :=
  match s with String c _ => Ascii.eqb c "0" = false | EmptyString => False end.

Lemma render_pos_head p : head_not_zero (render_N (Npos p)).
Proof.
  rewrite render_N_eq. cbn [N.to_uint]. pose proof (pos_to_uint_head p) as H.
  pose proof (Unsigned.to_uint_nonnil p) as Hn.
  destruct (Pos.to_uint p); cbn; try reflexivity; [congruence|]. exfalso. eapply H. reflexivity.
Qed.

Lemma render_N_nonempty n : render_N n <> EmptyString.
Proof.
  intros E. pose proof (parse_render n) as H. rewrite E in H. discriminate.
Qed.

Lemma all_digit_alnum s : all_chars is_digit s = true -> all_chars is_alnum s = true.
Proof.
  induction s as [|c s IH]; cbn [all_chars]; [reflexivity|]. rewrite andb_true_iff. intros [H1 H2].
  unfold is_alnum at 1. rewrite H1, IH by assumption. reflexivity.
Qed.

Lemma lex_go_alnum s cur acc : all_chars is_alnum s = true ->
  lex_go s cur acc = Some (List.rev (flush (string_rev_app s cur) acc)).
Proof.
  revert cur. induction s as [|c s IH]; intros cur H; cbn in *; [reflexivity|].
  apply andb_true_iff in H as [H1 H2]. rewrite H1. apply IH. exact H2.
Qed.

Lemma lex_go_lit s acc : all_chars is_alnum s = true -> s <> EmptyString ->
  lex_go s EmptyString acc = Some (List.rev (TLit s :: acc)).
Proof.
  intros H Hne. rewrite lex_go_alnum by exact H.
  unfold flush. destruct (string_rev_app s "") eqn:E.
  - exfalso. apply Hne. rewrite <- (rev_rev s), E. reflexivity.
  - rewrite <- E, rev_rev. reflexivity.
Qed.

Lemma span_app f a b : all_chars f a = true ->
  match b with String c _ => f c = false | EmptyString => True end ->
  span f (a ++ b) = (a, b).
Proof.
  intros Ha Hb. induction a as [|c a IH]; cbn in *.
  - destruct b as [|c b]; cbn; [reflexivity|]. rewrite Hb. reflexivity.
  - apply andb_true_iff in Ha as [H1 H2]. rewrite H1, IH by exact H2. reflexivity.
Qed.

Lemma eval_expr_lit s v t :
  all_chars is_alnum s = true -> s <> EmptyString -> classify_literal s = Some (v, t) ->
  eval_expr s = Some (v, t).
Proof.
  intros Ha Hne Hc. unfold eval_expr, lex. rewrite lex_go_lit by assumption.
  cbn [List.rev app List.length eval_unary]. rewrite Hc. reflexivity.
Qed.

Lemma eval_expr_neg_lit s v t v' :
  all_chars is_alnum s = true -> s <> EmptyString -> classify_literal s = Some (v, t) ->
  cneg t v = Some v' -> eval_expr (String "-" s) = Some (v', promote t).
Proof.
  intros Ha Hne Hc Hn. unfold eval_expr, lex.
  change (lex_go (String "-" s) "" []) with (lex_go s "" [TMinus]).
  rewrite lex_go_lit by assumption.
  cbn [List.rev app List.length eval_unary]. rewrite Hc, Hn. reflexivity.
Qed.

(* a decimal literal: the rendering of [n] followed by a suffix *)
Lemma decimal_literal (n : N) (suf : string) uns lng t :
  (n <> 0%N \/ suf = EmptyString) ->
  all_chars is_alnum suf = true ->
  match suf with String c _ => is_digit c = false | EmptyString => True end ->
  suffix_kind suf = Some (uns, lng) ->
  first_fit (Z.of_N n) (literal_types true uns lng) = Some t ->
  let s := (render_N n ++ suf)%string in
  all_chars is_alnum s = true /\ s <> EmptyString /\ classify_literal s = Some (Z.of_N n, t).
Proof.
  intros Hz Ha Hs Hk Hf s. pose proof (render_N_nonempty n) as Hne. split; [|split].
  - unfold s. rewrite all_chars_app, (all_digit_alnum _ (render_N_digits n)). exact Ha.
  - unfold s. destruct (render_N n); [congruence|discriminate].
  - unfold classify_literal.
    assert (Hbase :
      match s with
      | String c (String x r) =>
        if Ascii.eqb c "0"
        then (if Ascii.eqb x "x" || Ascii.eqb x "X" then (16, r) else (8, String x r))
        else (10, s)
      | _ => (10, s)
      end = (10, s)).
    { unfold s. destruct n as [|p].
      - destruct Hz as [Hz| ->]; [congruence|]. reflexivity.
      - pose proof (render_pos_head p) as Hh. destruct (render_N (N.pos p)) as [|c r]; [destruct Hh|].
        cbn in Hh. cbn [String.append]. rewrite Hh. destruct (r ++ suf)%string; reflexivity. }
    rewrite Hbase. cbn [Z.eqb Pos.eqb]. unfold s.
    rewrite (span_app is_digit) by (try apply render_N_digits; exact Hs).
    destruct (render_N n) eqn:E; [congruence|]. rewrite <- E.
    rewrite parse_render, Hk. change (10 =? 10) with true. rewrite Hf. reflexivity.
Qed.

(* [lex.icon]: an unsuffixed decimal literal up to INT64_MAX is an int or a long *)
Lemma first_fit_signed v : 0 <= v <= INT64_MAX ->
  exists t, first_fit v [I32; I64] = Some t /\ in_range t v = true /\
            promote t = t /\ is_signed t = true.
Proof.
  intros H. rewrite INT64_MAX_eq in H. unfold first_fit. cbn [find].
  destruct (in_range I32 v) eqn:E.
  - exists I32. auto.
  - exists I64. assert (Hr : in_range I64 v = true) by (apply in_range_iff, i64_range; lia).
    rewrite Hr. auto.
Qed.

Lemma eval_render_Z v : - INT64_MAX <= v <= INT64_MAX ->
  exists t, eval_expr (render_Z v) = Some (v, t).
Proof.
  (* render_Z v is the decimal literal |v|, behind a minus sign when v < 0 *)
  intros H. destruct (first_fit_signed (Z.abs v)) as (t & Hf & Hin & Hp & Hs); [lia|].
  destruct (decimal_literal (Z.abs_N v) EmptyString false false t) as (A & B & C);
    [right; reflexivity|reflexivity|exact I|reflexivity|rewrite N2Z.inj_abs_N; exact Hf|].
  rewrite string_app_nil_r, N2Z.inj_abs_N in *. exists t.
  destruct v as [|p|p]; try exact (eval_expr_lit _ _ _ A B C).
  rewrite <- Hp. apply (eval_expr_neg_lit _ _ _ _ A B C).
  unfold cneg, arith. rewrite Hp, Hs.
  change (Z.abs (Z.neg p)) with (Z.pos p) in *. rewrite (in_range_opp t (Z.pos p)) by (auto; lia).
  reflexivity.
Qed.

Lemma eval_big_unsigned v : INT64_MAX < v <= 18446744073709551615 ->
  eval_expr (render_Z v ++ "UL") = Some (v, U64).
Proof.
  intros H. rewrite INT64_MAX_eq in H. destruct v as [|p|p]; try lia.
  destruct (decimal_literal (N.pos p) "UL" true true U64) as (A & B & C);
    [left; discriminate|reflexivity|reflexivity|reflexivity| |exact (eval_expr_lit _ _ _ A B C)].
  unfold first_fit. cbn [literal_types find Z.of_N].
  rewrite (proj2 (in_range_u64 (Z.pos p))) by lia. reflexivity.
Qed.

Lemma parse_digits_nonneg s v : parse_digits s = Some v -> 0 <= v.
Proof.
  unfold parse_digits. destruct (NilZero.uint_of_string s); [|discriminate].
  intros [= <-]. lia.
Qed.

Lemma string_to_number_spec t s v : string_to_number t s = Some v ->
  from_chars (is_signed t) s = Some v /\ in_range t v = true.
Proof.
  unfold string_to_number. destruct (from_chars (is_signed t) s) as [w|]; [|discriminate].
  destruct (in_range t w) eqn:E; [|discriminate]. intros [= <-]. auto.
Qed.

Lemma string_to_number_intro t s v :
  from_chars (is_signed t) s = Some v -> in_range t v = true -> string_to_number t s = Some v.
Proof. unfold string_to_number. intros -> ->. reflexivity. Qed.

Lemma from_chars_minus b s v : starts_with_minus s = true -> from_chars b s = Some v ->
  b = true /\ from_chars true s = Some v /\ v <= 0.
Proof.
  destruct s as [|c r]; cbn; [discriminate|]. intros ->. destruct b; [|discriminate].
  intros H. repeat split; [exact H|]. destruct (parse_digits r) as [w|] eqn:E; [|discriminate].
  apply parse_digits_nonneg in E. injection H as <-. lia.
Qed.

Lemma from_chars_nominus b s v : starts_with_minus s = false -> from_chars b s = Some v ->
  from_chars false s = Some v /\ 0 <= v.
Proof.
  destruct s as [|c r]; cbn; [discriminate|]. intros ->. intros H. split; [exact H|].
  eapply parse_digits_nonneg; eassumption.
Qed.

Lemma denotes_of_eval txt p v t :
  eval_expr txt = Some (v, t) -> in_range (prim_cty p) v = true -> literal_denotes txt p v = true.
Proof. intros He Hr. unfold literal_denotes, narrowing. rewrite He, Z.eqb_refl, Hr. reflexivity. Qed.

(* C07 (1): for every integer primitive type and every schema value the validator
   accepts for it (value_fits_into_type = string_to_number<T> succeeds, value
   [v]) the emitted text is a constant expression of value [v] that is not a
   narrowing initialiser of the representation type *)
Theorem literals_ok : forall p s v,
  is_fp p = false ->
  string_to_number (prim_cty p) s = Some v ->
  exists txt, to_integer_literal s = Some txt /\ literal_denotes txt p v = true.
Proof.
  intros p s v _ Hs. apply string_to_number_spec in Hs as [Hfc Hin].
  unfold to_integer_literal. destruct (starts_with_minus s) eqn:Hm.
  - destruct (from_chars_minus _ _ _ Hm Hfc) as (Hsg & Hfc' & Hle).
    pose proof (range_le_I64 _ _ Hsg Hin) as H64.
    rewrite (string_to_number_intro I64 s v Hfc' H64).
    destruct (Z.ltb_spec v (- INT64_MAX)) as [Hlt|Hge].
    + (* only INT64_MIN is below -INT64_MAX *)
      apply in_range_iff, i64_range in H64. rewrite INT64_MAX_eq in Hlt.
      assert (v = -9223372036854775808) by lia. subst v.
      eexists. split; [reflexivity|].
      apply denotes_of_eval with (t := I64); [vm_compute; reflexivity|exact Hin].
    + destruct (eval_render_Z v) as (t & He); [rewrite INT64_MAX_eq in *; lia|].
      eexists. split; [reflexivity|]. exact (denotes_of_eval _ _ _ _ He Hin).
  - destruct (from_chars_nominus _ _ _ Hm Hfc) as [Hfc' Hnn].
    pose proof (in_range_widen_unsigned _ _ Hnn Hin) as H64.
    rewrite (string_to_number_intro U64 s v Hfc' H64).
    destruct (Z.ltb_spec INT64_MAX v) as [Hgt|Hle].
    + apply in_range_u64 in H64.
      eexists. split; [reflexivity|].
      apply denotes_of_eval with (t := U64); [apply eval_big_unsigned; lia|exact Hin].
    + destruct (eval_render_Z v) as (t & He); [rewrite INT64_MAX_eq in *; lia|].
      eexists. split; [reflexivity|]. exact (denotes_of_eval _ _ _ _ He Hin).
Qed.

Example literals_ok_nonvacuous :
  string_to_number (prim_cty PU8) "010" = Some 10 /\
  to_integer_literal "010" = Some "10"%string /\ literal_denotes "10" PU8 10 = true /\
  string_to_number (prim_cty PI64) "-9223372036854775808" = Some (-9223372036854775808) /\
  to_integer_literal "-9223372036854775808" = Some "-9223372036854775807 -1"%string /\
  string_to_number (prim_cty PU64) "18446744073709551615" = Some 18446744073709551615.
Proof. vm_compute. repeat split. Qed.

(* the code before the fix echoes the schema text: from_chars reads "010" as
   ten, a C++ compiler reads it as eight; "08" does not lex at all *)
Example literals_legacy_refuted :
  string_to_number (prim_cty PU8) "010" = Some 10 /\
  Legacy.to_integer_literal "010" PU8 = Some "010"%string /\
  literal_denotes "010" PU8 10 = false /\ eval_expr "010" = Some (8, I32) /\
  string_to_number (prim_cty PU8) "08" = Some 8 /\
  Legacy.to_integer_literal "08" PU8 = Some "08"%string /\ eval_expr "08" = None.
Proof. vm_compute. repeat split. Qed.

(* the 33 built-in table entries *)
Lemma builtin_table_all : forallb entry_ok table_entries = true.
Proof. vm_compute. reflexivity. Qed.

Lemma table_entries_complete w p : In (w, p) table_entries.
Proof.
  apply in_flat_map. exists w. split; [destruct w; cbn; auto|].
  apply in_map. destruct p; cbn; auto 12.
Qed.

Theorem builtin_table_ok : forall w p,
  if is_fp p then builtin_text w p = fp_default_text w p
  else literal_denotes (builtin_text w p) p (sbe_default w p) = true.
Proof.
  intros w p. pose proof builtin_table_all as H. rewrite forallb_forall in H.
  specialize (H _ (table_entries_complete w p)). unfold entry_ok in H.
  destruct (is_fp p); [apply String.eqb_eq; exact H|exact H].
Qed.

Example builtin_table_nonvacuous :
  List.length table_entries = 33%nat /\ sbe_default WNull PI16 = -32768 /\
  literal_denotes "-327678" PI16 (sbe_default WNull PI16) = false.
Proof. vm_compute. repeat split. Qed.

Lemma code_range c : 0 <= code c < 256.
Proof.
  unfold code. pose proof (N_ascii_bounded c). lia.
Qed.

Lemma chr_code c : chr (code c) = c.
Proof. unfold chr, code. rewrite N2Z.id. apply ascii_N_embedding. Qed.

Lemma code_chr n : 0 <= n < 256 -> code (chr n) = n.
Proof.
  intros H. unfold chr, code. rewrite N_ascii_embedding by lia. lia.
Qed.

Lemma option_map_some {A B} (f : A -> B) o x : o = Some x -> option_map f o = Some (f x).
Proof. intros ->. reflexivity. Qed.

(* what the scan emits for one character: a backslash and the character itself
   (quotes, backslash, the second of two question marks), a backslash and three
   octal digits, or the character unchanged *)
Lemma escape_go_cases c r q :
  (In (code c) [34; 92; 39; 63] /\
   exists q', escape_go (String c r) q = String "\" (String c (escape_go r q'))) \/
  escape_go (String c r) q = (String "\" (octal3 (code c)) ++ escape_go r false)%string \/
  (plain_char c = true /\ (code c =? 63) && q = false /\
   escape_go (String c r) q = String c (escape_go r (code c =? 63))).
Proof.
  cbn [escape_go]. unfold plain_char.
  destruct ((code c =? 34) || (code c =? 92) || (code c =? 39)) eqn:E1.
  { left. split; [|eexists; reflexivity].
    apply orb_true_iff in E1 as [[->%Z.eqb_eq | ->%Z.eqb_eq]%orb_true_iff | ->%Z.eqb_eq]; cbn [In]; auto. }
  destruct ((code c =? 63) && q) eqn:E2.
  { left. apply andb_true_iff in E2 as [E2 _]. apply Z.eqb_eq in E2.
    split; [rewrite E2; cbn [In]; auto|eexists; reflexivity]. }
  destruct ((code c <? 32) || (code c =? 127)) eqn:E3; [right; left; reflexivity|].
  apply orb_false_iff in E3 as [E3 E4]. rewrite E3, E4. auto.
Qed.

(* invariant of the scan: after an emitted question mark the remaining escaped
   text never starts with another one *)
Definition starts_q (s : string) : bool :=
  match s with String c _ => code c =? 63 | EmptyString => false end.

Lemma escape_go_starts_q T : starts_q T = false ->
  forall s q, q && starts_q (escape_go s q ++ T) = false.
Proof.
  intros HT s [|]; [|reflexivity]. destruct s as [|c r]; [exact HT|].
  destruct (escape_go_cases c r true) as [(_ & q' & ->)|[->|(_ & Hq & ->)]]; try reflexivity.
  rewrite andb_true_r in Hq. exact Hq.
Qed.

Lemma oct_digit_chr d : 0 <= d < 8 -> oct_digit (chr (48 + d)) = Some d.
Proof.
  intros H. unfold oct_digit, is_octal_digit. rewrite code_chr by lia.
  rewrite (proj2 (Z.leb_le 48 (48 + d))), (proj2 (Z.leb_le (48 + d) 55)) by lia.
  cbn [andb]. f_equal. lia.
Qed.

(* what follows a backslash, on variables: a simple escape, three octal digits,
   one octal digit before the end or a character that is not an octal digit *)
Lemma denotes_simple_escape e x r : oct_digit e = None -> simple_escape e = Some x ->
  string_literal_denotes (String "\" (String e r)) = option_map (String x) (string_literal_denotes r).
Proof. intros H1 H2. cbn [string_literal_denotes]. rewrite H1, H2. reflexivity. Qed.

Lemma denotes_octal_escape3 e1 e2 e3 d1 d2 d3 r :
  oct_digit e1 = Some d1 -> oct_digit e2 = Some d2 -> oct_digit e3 = Some d3 ->
  d1 * 64 + d2 * 8 + d3 < 256 ->
  string_literal_denotes (String "\" (String e1 (String e2 (String e3 r))))
  = option_map (String (chr (d1 * 64 + d2 * 8 + d3))) (string_literal_denotes r).
Proof.
  intros H1 H2 H3 Hv.
  (* one level at a time: with the tail a variable the fall-back branches, which
     scan the digits again as ordinary characters, stay folded *)
  remember (String e3 r) as r2 eqn:E2. remember (String e2 r2) as r1 eqn:E1.
  cbn [string_literal_denotes]. rewrite H1. subst r1. cbv beta iota.
  rewrite H2. subst r2. cbv beta iota.
  rewrite H3, (proj2 (Z.ltb_lt _ _) Hv). reflexivity.
Qed.

Lemma denotes_octal_escape1 e d r : oct_digit e = Some d ->
  match r with String e2 _ => oct_digit e2 = None | EmptyString => True end ->
  string_literal_denotes (String "\" (String e r)) = option_map (String (chr d)) (string_literal_denotes r).
Proof.
  intros H1 H2. cbn [string_literal_denotes]. rewrite H1.
  destruct r as [|e2 r2]; [reflexivity|]. rewrite H2. reflexivity.
Qed.

Lemma denotes_backslash_simple c r : In (code c) [34; 92; 39; 63] ->
  string_literal_denotes (String "\" (String c r)) = option_map (String c) (string_literal_denotes r).
Proof.
  intros H. apply denotes_simple_escape; unfold oct_digit, is_octal_digit, simple_escape;
    destruct H as [<-|[<-|[<-|[<-|[]]]]]; reflexivity.
Qed.

Lemma denotes_octal3 n r : 0 <= n < 256 ->
  string_literal_denotes (String "\" (octal3 n ++ r)) = option_map (String (chr n)) (string_literal_denotes r).
Proof.
  intros H.
  (* the three octal digits of n *)
  pose proof (Z.div_mod n 8) as E1. pose proof (Z.div_mod (n / 8) 8) as E2.
  pose proof (Z.mod_pos_bound n 8) as B1. pose proof (Z.mod_pos_bound (n / 8) 8) as B2.
  rewrite Z.div_div in E2 by lia. change (8 * 8) with 64 in E2.
  replace (chr n) with (chr (n / 64 * 64 + n / 8 mod 8 * 8 + n mod 8)) by (f_equal; lia).
  apply denotes_octal_escape3; try apply oct_digit_chr; lia.
Qed.

Lemma plain_char_inv c : plain_char c = true ->
  (code c =? 34) = false /\ (code c =? 92) = false /\ (code c =? 39) = false /\
  (code c <? 32) = false /\ (code c =? 127) = false.
Proof.
  unfold plain_char. intros H. apply negb_true_iff in H.
  repeat (apply orb_false_iff in H as [H ?]). auto.
Qed.

Lemma denotes_plain c r : plain_char c = true -> (code c =? 63) && starts_q r = false ->
  string_literal_denotes (String c r) = option_map (String c) (string_literal_denotes r).
Proof.
  intros Hp Hq. destruct (plain_char_inv c Hp) as (A & B & C & D & _). apply Z.ltb_ge in D.
  cbn [string_literal_denotes]. rewrite A, B, C.
  rewrite (proj2 (Z.eqb_neq (code c) 10)), (proj2 (Z.eqb_neq (code c) 13)) by lia.
  cbn [orb]. destruct (code c =? 63); [|reflexivity].
  destruct r as [|x [|t r']]; try reflexivity. cbn [andb starts_q] in Hq. rewrite Hq. reflexivity.
Qed.

(* C07 (3): for every byte string the escaped text (followed by any text [T] that does not
   start with a question mark) stays inside the literal in every language
   level and denotes exactly the original characters *)
Lemma escape_go_denotes_tail T T' : starts_q T = false -> string_literal_denotes T = Some T' ->
  forall s q, string_literal_denotes (escape_go s q ++ T) = Some (s ++ T')%string.
Proof.
  intros HT HT'. induction s as [|c r IH]; intros q; [exact HT'|].
  destruct (escape_go_cases c r q) as [(Hc & q' & ->)|[->|(Hp & _ & ->)]].
  - cbn [String.append]. rewrite denotes_backslash_simple, IH by exact Hc. reflexivity.
  - rewrite string_app_assoc. cbn [String.append].
    rewrite denotes_octal3, IH, chr_code by apply code_range. reflexivity.
  - cbn [String.append]. rewrite denotes_plain, IH; [reflexivity|exact Hp|].
    apply escape_go_starts_q, HT.
Qed.

Theorem strings_ok : forall s, string_literal_denotes (escape_literal s) = Some s.
Proof.
  intros s. pose proof (escape_go_denotes_tail EmptyString EmptyString eq_refl eq_refl s false) as H.
  rewrite !string_app_nil_r in H. exact H.
Qed.

(* string constants: the value, then \0 padding up to the declared length *)
Lemma pad_denotes k : string_literal_denotes (pad_zeros k) = Some (nul_string k).
Proof.
  induction k as [|k IH]; [reflexivity|].
  change (pad_zeros (S k)) with (String "\" (String "0" (pad_zeros k))).
  rewrite (denotes_octal_escape1 "0" 0), IH by (try destruct k; reflexivity). reflexivity.
Qed.

Lemma pad_starts_q k : starts_q (pad_zeros k) = false.
Proof. destruct k; reflexivity. Qed.

Theorem string_constant_ok : forall v len txt,
  make_string_constant v len = Some txt ->
  string_literal_denotes txt = Some (v ++ nul_string (len - String.length v))%string /\
  String.length (v ++ nul_string (len - String.length v)) = len.
Proof.
  intros v len txt. unfold make_string_constant.
  destruct (Nat.ltb len (String.length v)) eqn:E; [discriminate|]. intros [= <-].
  apply Nat.ltb_ge in E. split.
  - apply escape_go_denotes_tail; [apply pad_starts_q|apply pad_denotes].
  - rewrite string_length_app.
    assert (Hn : forall k, String.length (nul_string k) = k) by (induction k; cbn; auto).
    rewrite Hn. lia.
Qed.

Example strings_ok_nonvacuous :
  escape_literal "say ""hi"" \o/ ??/" = "say \""hi\"" \\o/ ?\?/"%string /\
  string_literal_denotes "say \""hi\"" \\o/ ?\?/" = Some "say ""hi"" \o/ ??/"%string.
Proof. vm_compute. split; reflexivity. Qed.

(* the code before the fix pasted the text verbatim: a double quote ends the
   literal, a backslash starts an escape, "??/" is a trigraph for a backslash
   in C++11/14 *)
Example strings_legacy_refuted :
  string_literal_denotes (Legacy.escape_literal "say ""hi""") = None /\
  string_literal_denotes (Legacy.escape_literal "a\b") = Some (String "a" (String (chr 8) EmptyString)) /\
  string_literal_denotes (Legacy.escape_literal "what??/") = None /\
  string_literal_denotes (Legacy.escape_literal "'") = None.
Proof. vm_compute. repeat split. Qed.

(* which strings reach the header unchanged: exactly those made of plain
   characters without two adjacent question marks *)
Lemma ndq_cons a r : no_double_question (String a r) =
  negb ((code a =? 63) && starts_q r) && no_double_question r.
Proof. destruct r; [cbn; rewrite andb_false_r|]; reflexivity. Qed.

Lemma escape_go_fixed s : forall q,
  all_chars plain_char s = true -> no_double_question s = true ->
  (q = true -> starts_q s = false) -> escape_go s q = s.
Proof.
  induction s as [|c r IH]; intros q Hp Hd Hq; [reflexivity|].
  cbn [all_chars] in Hp. apply andb_true_iff in Hp as [Hp1 Hp2].
  rewrite ndq_cons in Hd. apply andb_true_iff in Hd as [Hd1 Hd2].
  destruct (plain_char_inv c Hp1) as (A & B & C & D & E).
  cbn [escape_go]. rewrite A, B, C, D, E. cbn [orb].
  assert (Hq' : (code c =? 63) && q = false).
  { destruct q; [|apply andb_false_r]. specialize (Hq eq_refl). cbn in Hq. rewrite Hq. reflexivity. }
  rewrite Hq'. f_equal. apply IH; [exact Hp2|exact Hd2|].
  intros E63. rewrite E63 in Hd1. apply negb_true_iff in Hd1. exact Hd1.
Qed.

Lemma escape_go_length s : forall q, (String.length s <= String.length (escape_go s q))%nat.
Proof.
  induction s as [|c r IH]; intros q; [apply le_n|].
  destruct (escape_go_cases c r q) as [(_ & q' & ->)|[->|(_ & _ & ->)]];
    rewrite ?string_length_app; cbn [String.length].
  - specialize (IH q'). lia.
  - specialize (IH false). lia.
  - apply le_n_S, IH.
Qed.

Lemma escape_go_fixed_inv s : forall q, escape_go s q = s ->
  all_chars plain_char s = true /\ no_double_question s = true /\ (q = true -> starts_q s = false).
Proof.
  induction s as [|c r IH]; intros q H; [cbn; auto|].
  destruct (escape_go_cases c r q) as [(_ & q' & E)|[E|(Hp & Hq & E)]]; rewrite E in H.
  - (* an escape makes the text longer *)
    exfalso. apply (f_equal String.length) in H. cbn [String.length] in H.
    pose proof (escape_go_length r q'). lia.
  - exfalso. apply (f_equal String.length) in H. unfold octal3 in H.
    cbn [String.append String.length] in H. pose proof (escape_go_length r false). lia.
  - injection H as H. destruct (IH _ H) as (P1 & P2 & P3).
    cbn [all_chars]. rewrite ndq_cons, Hp, P1, P2, !andb_true_r. repeat split.
    + destruct (code c =? 63); [|reflexivity]. rewrite P3; reflexivity.
    + intros ->. rewrite andb_true_r in Hq. exact Hq.
Qed.

Theorem survives_iff : forall s, escape_literal s = s <-> survives_unchanged s = true.
Proof.
  intros s. unfold escape_literal, survives_unchanged. split.
  - intros H. destruct (escape_go_fixed_inv s false H) as (P1 & P2 & _). rewrite P1, P2. reflexivity.
  - intros H. apply andb_true_iff in H as [P1 P2]. apply escape_go_fixed; auto. discriminate.
Qed.

Lemma mentions_app a b : mentions_point_or_exp (a ++ b) = mentions_point_or_exp a || mentions_point_or_exp b.
Proof. unfold mentions_point_or_exp. rewrite all_chars_app, negb_andb. reflexivity. Qed.

Lemma digit_not_pe c : is_digit c = true ->
  negb (Ascii.eqb c "." || Ascii.eqb c "e" || Ascii.eqb c "E") = true.
Proof.
  intros H. destruct (Ascii.eqb_spec c "."); [subst; discriminate|].
  destruct (Ascii.eqb_spec c "e"); [subst; discriminate|].
  destruct (Ascii.eqb_spec c "E"); [subst; discriminate|]. reflexivity.
Qed.

Lemma digits_no_mention s : all_chars is_digit s = true -> mentions_point_or_exp s = false.
Proof.
  unfold mentions_point_or_exp. intros H. apply negb_false_iff.
  induction s as [|c s IH]; [reflexivity|]. cbn [all_chars] in *.
  apply andb_true_iff in H as [H1 H2]. rewrite (digit_not_pe c H1), IH by exact H2. reflexivity.
Qed.

Lemma exponent_mentions ex : exponent_ok ex = true -> mentions_point_or_exp ex = nonempty ex.
Proof.
  destruct ex as [|e r]; [reflexivity|]. cbn [exponent_ok]. intros H.
  apply andb_true_iff in H as [H _]. unfold mentions_point_or_exp. cbn [all_chars].
  apply orb_true_iff in H. destruct H as [H|H]; rewrite H; rewrite ?orb_true_r; reflexivity.
Qed.

Lemma strip_sign_mentions s : mentions_point_or_exp s = mentions_point_or_exp (strip_sign s).
Proof.
  destruct s as [|c r]; [reflexivity|]. cbn [strip_sign].
  destruct (Ascii.eqb_spec c "+"); [subst; reflexivity|].
  destruct (Ascii.eqb_spec c "-"); [subst; reflexivity|]. reflexivity.
Qed.

Lemma strip_sign_app s t : strip_sign s <> EmptyString ->
  strip_sign (s ++ t) = (strip_sign s ++ t)%string.
Proof.
  destruct s as [|c r]; [intros []; reflexivity|]. intros _. cbn [String.append strip_sign].
  destruct (Ascii.eqb c "+" || Ascii.eqb c "-"); reflexivity.
Qed.

Lemma span_spec f s : let '(a, b) := span f s in
  s = (a ++ b)%string /\ all_chars f a = true /\
  match b with String c _ => f c = false | EmptyString => True end.
Proof.
  induction s as [|c s IH]; cbn [span]; [auto|].
  destruct (f c) eqn:E.
  - destruct (span f s) as [a b]. destruct IH as (-> & Ha & Hb).
    cbn [String.append all_chars]. rewrite E, Ha. auto.
  - cbn. auto.
Qed.

(* the pattern "." of [split_fp] is a match on the eight bits of the character *)
Lemma match_dot {A} c (x y : A) : c <> "."%char ->
  match c with "."%char => x | _ => y end = y.
Proof.
  intros H. destruct c as [b0 b1 b2 b3 b4 b5 b6 b7].
  destruct b0; [reflexivity|]. destruct b1; [|reflexivity]. destruct b2; [|reflexivity].
  destruct b3; [|reflexivity]. destruct b4; [reflexivity|]. destruct b5; [|reflexivity].
  destruct b6; [reflexivity|]. destruct b7; [reflexivity|]. congruence.
Qed.

Lemma split_fp_spec s : let '(i, dot, fr, ex) := split_fp s in
  all_chars is_digit i = true /\
  s = (i ++ (if dot then String "." fr else EmptyString) ++ ex)%string.
Proof.
  unfold split_fp. pose proof (span_spec is_digit s) as H.
  destruct (span is_digit s) as [i r]. destruct H as (-> & Hi & _).
  destruct r as [|c r1]; [auto|]. destruct (Ascii.eqb_spec c ".") as [->|Hc].
  - pose proof (span_spec is_digit r1) as H. destruct (span is_digit r1) as [fr r2].
    destruct H as (-> & _). auto.
  - rewrite match_dot by exact Hc. auto.
Qed.

Lemma split_fp_dot i fr ex : all_chars is_digit i = true -> all_chars is_digit fr = true ->
  match ex with String c _ => is_digit c = false | EmptyString => True end ->
  split_fp (i ++ String "." (fr ++ ex)) = (i, true, fr, ex).
Proof.
  intros Hi Hf He. unfold split_fp. rewrite (span_app is_digit i) by (try exact Hi; reflexivity).
  rewrite (span_app is_digit fr ex Hf He). reflexivity.
Qed.

(* every decimal float string the validator lets through is rendered as a
   C++ floating literal (after the optional sign), never as an integer literal *)
Theorem fp_literal_is_floating : forall s,
  xml_decimal_ok s = true -> cpp_number_kind (strip_sign (fp_literal s)) = KFloating.
Proof.
  intros s Hx. unfold xml_decimal_ok in Hx. unfold fp_literal. rewrite (strip_sign_mentions s).
  pose proof (split_fp_spec (strip_sign s)) as Hsp.
  destruct (split_fp (strip_sign s)) as [[[i dot] fr] ex] eqn:Eu. destruct Hsp as (Hi & Hu).
  apply andb_true_iff in Hx as [Hx1 Hx2].
  (* the text mentions a point or an exponent exactly when it has one *)
  assert (Hm : mentions_point_or_exp (strip_sign s) = dot || nonempty ex).
  { rewrite Hu, !mentions_app, (digits_no_mention i Hi), (exponent_mentions ex Hx2).
    destruct dot; reflexivity. }
  rewrite Hm. destruct dot; cbn [orb andb] in *.
  - unfold cpp_number_kind. rewrite Eu, Hx2. cbn [negb].
    destruct (nonempty i); [reflexivity|]. cbn [orb] in *. rewrite Hx1. reflexivity.
  - rewrite orb_false_r in Hx1. destruct (nonempty ex) eqn:Ex.
    + unfold cpp_number_kind, has_exponent. rewrite Eu, Hx2, Ex, Hx1. reflexivity.
    + (* plain digits: ".0" is appended *)
      destruct ex; [|discriminate]. rewrite !string_app_nil_r in Hu.
      rewrite strip_sign_app, Hu by (rewrite Hu; intros ->; discriminate).
      unfold cpp_number_kind. rewrite (split_fp_dot i "0" "" Hi eq_refl I : split_fp (i ++ ".0") = _).
      cbn. rewrite Hx1. reflexivity.
Qed.

Example fp_literal_nonvacuous :
  xml_decimal_ok "16777217" = true /\ fp_literal "16777217" = "16777217.0"%string /\
  xml_decimal_ok "-09" = true /\ fp_literal "-09" = "-09.0"%string /\
  xml_decimal_ok "+.5e-3" = true /\ fp_literal "+.5e-3" = "+.5e-3"%string /\
  xml_decimal_ok "1." = true /\ cpp_number_kind "1." = KFloating.
Proof. vm_compute. repeat split. Qed.

(* before the fix the text was pasted unchanged: "16777217" is an int literal
   that a float cannot represent exactly (narrowing, ill-formed), "09" is not
   a literal at all *)
Example fp_legacy_refuted :
  xml_decimal_ok "16777217" = true /\
  cpp_number_kind (strip_sign (Legacy.fp_literal "16777217")) = KInteger /\
  eval_expr "16777217" = Some (16777217, I32) /\ fp_exact PF32 16777217 = false /\
  xml_decimal_ok "09" = true /\
  cpp_number_kind (strip_sign (Legacy.fp_literal "09")) = KInteger /\ eval_expr "09" = None.
Proof. vm_compute. repeat split. Qed.
