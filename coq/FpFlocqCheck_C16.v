(* FpFlocqCheck_C16.v — cross-check of Fp.fcompare (the axiom-free comparison on
   bit patterns used by the C16 model) against Flocq's IEEE-754 formalisation
   (Bcompare on b32_of_bits / b64_of_bits) on the full cross product of a
   boundary set: +-0, +-denorm_min, largest subnormal, +-min normal, +-1, 1.5,
   neighbours of 1, +-max, +-inf, five NaN patterns per sign, some ordinary numbers.
   This file is an independent sanity check only: nothing else depends on it
   and the model does not depend on Flocq. *)
From Coq Require Import ZArith List Bool Lia Floats.SpecFloat.
From Flocq Require Import IEEE754.Binary IEEE754.Bits.
From Sbepp Require Import ListFacts Fp.
Import IEEE ListNotations.
Local Open Scope Z_scope.

Definition of_flocq (c : option comparison) : fcmp :=
  match c with Some Lt => FLt | Some Eq => FEq | Some Gt => FGt | None => FUn end.

Definition fcmp_eqb (a b : fcmp) : bool :=
  match a, b with FLt, FLt | FEq, FEq | FGt, FGt | FUn, FUn => true | _, _ => false end.

Definition boundary (f : fty) : list Z :=
  let mb := mbits f in
  let sign := 2 ^ (fbits f - 1) in
  let expmask := emax f * 2 ^ mb in
  let one := (2 ^ (ebits f - 1) - 1) * 2 ^ mb in
  let pos := [0; 1; 2; 2 ^ mb - 1; 2 ^ mb; 2 ^ mb + 1; one - 1; one; one + 1; one + 2 ^ (mb - 1);
              3 * 2 ^ mb + 12345; expmask - 2 ^ mb; expmask - 1; expmask;
              expmask + 1; expmask + 2 ^ (mb - 2); expmask + 2 ^ (mb - 1);
              expmask + 2 ^ (mb - 1) + 1; expmask + 2 ^ mb - 1] in
  pos ++ map (fun b => sign + b) pos.

Definition agree32 : bool :=
  forallb (fun a => forallb (fun b =>
    fcmp_eqb (fcompare F32 a b) (of_flocq (Bcompare 24 128 (b32_of_bits a) (b32_of_bits b))))
    (boundary F32)) (boundary F32).

Definition agree64 : bool :=
  forallb (fun a => forallb (fun b =>
    fcmp_eqb (fcompare F64 a b) (of_flocq (Bcompare 53 1024 (b64_of_bits a) (b64_of_bits b))))
    (boundary F64)) (boundary F64).

(* Evaluated as written, each of the 38 x 38 pairs decodes both patterns again,
   and every decoding divides by 2^52 ([is_nan], [fkey], [b64_of_bits]), which
   dominates the cost of re-checking this file without the bytecode machine.
   What a pattern contributes to a comparison is computed once per pattern
   instead, and on the model's side with shifts and masks. *)
Definition nan_key (f : fty) (a : Z) : bool * Z :=
  let e := Z.land (Z.shiftr a (mbits f)) (Z.ones (ebits f)) in
  let m := Z.land a (Z.ones (mbits f)) in
  let g := Z.land a (Z.ones (fbits f - 1)) in
  ((e =? emax f) && negb (m =? 0), if fsign f a then - g else g).

Lemma nan_key_spec f a : nan_key f a = (is_nan f a, fkey f a).
Proof.
  unfold nan_key, is_nan, fkey, fexp, fman, fmag.
  rewrite !Z.land_ones, Z.shiftr_div_pow2 by (destruct f; discriminate). reflexivity.
Qed.

Definition fcompare_keys (x y : bool * Z) : fcmp :=
  if fst x || fst y then FUn else
  match snd x ?= snd y with Lt => FLt | Eq => FEq | Gt => FGt end.

Lemma fcompare_by_keys f a b : fcompare f a b = fcompare_keys (nan_key f a) (nan_key f b).
Proof. rewrite !nan_key_spec. reflexivity. Qed.

(* Flocq's decoder, as far as [Bcompare] looks at its result; the fields are
   taken with shifts and masks as well *)
Definition sf_of_bits (mw ew x : Z) : spec_float :=
  let s := 2 ^ (mw + ew) <=? x in
  let m := Z.land x (Z.ones mw) in
  let e := Z.land (Z.shiftr x mw) (Z.ones ew) in
  let emin := SpecFloat.emin (mw + 1) (2 ^ (ew - 1)) in
  if Zeq_bool e 0 then
    match m with 0 => S754_zero s | Zpos p => S754_finite s p emin | Zneg _ => S754_nan end
  else if Zeq_bool e (2 ^ ew - 1) then
    match m with 0 => S754_infinity s | _ => S754_nan end
  else match m + 2 ^ mw with Zpos p => S754_finite s p (e + emin - 1) | _ => S754_nan end.

Lemma sf_of_bits_spec mw ew H1 H2 H3 x :
  BinarySingleNaN.B2SF (B2BSN _ _ (binary_float_of_bits mw ew H1 H2 H3 x)) = sf_of_bits mw ew x.
Proof.
  unfold binary_float_of_bits. rewrite B2SF_B2BSN, B2SF_FF2B.
  unfold binary_float_of_bits_aux, split_bits, sf_of_bits.
  rewrite Z.pow_add_r, !Z.land_ones, Z.shiftr_div_pow2 by lia. cbv zeta.
  destruct (Zeq_bool _ 0); [destruct (x mod _); reflexivity|].
  destruct (Zeq_bool _ _); [destruct (x mod _); reflexivity|].
  destruct (_ + 2 ^ mw); reflexivity.
Qed.

Lemma sweep_by_keys f mw ew H1 H2 H3 l :
  forallb (fun a => forallb (fun b =>
    fcmp_eqb (fcompare f a b)
      (of_flocq (Bcompare _ _ (binary_float_of_bits mw ew H1 H2 H3 a)
                              (binary_float_of_bits mw ew H1 H2 H3 b)))) l) l
  = (let l' := map (fun a => (nan_key f a, sf_of_bits mw ew a)) l in
     forallb (fun x => forallb (fun y =>
       fcmp_eqb (fcompare_keys (fst x) (fst y)) (of_flocq (SFcompare (snd x) (snd y)))) l') l').
Proof.
  cbv zeta. rewrite forallb_map. apply forallb_ext. intros a _.
  rewrite forallb_map. apply forallb_ext. intros b _.
  unfold Bcompare, BinarySingleNaN.Bcompare. rewrite !sf_of_bits_spec. cbn [fst snd].
  rewrite fcompare_by_keys. reflexivity.
Qed.

Example fcompare_agrees_with_flocq_binary32 : agree32 = true.
Proof.
  unfold agree32, b32_of_bits. rewrite (sweep_by_keys F32 23 8). vm_compute. reflexivity.
Qed.

Example fcompare_agrees_with_flocq_binary64 : agree64 = true.
Proof.
  unfold agree64, b64_of_bits. rewrite (sweep_by_keys F64 52 11). vm_compute. reflexivity.
Qed.

(* Flocq's decoder reads [fl_qnan] as a NaN in both formats, as the model does
   (which does not take [fl_inf] or [fl_max] for one); [fl_max F32] and
   [fl_min F64] come back unchanged from Flocq's decoder and encoder *)
Example constants_match_flocq :
  map (fun b => IEEE.is_nan F32 b) [fl_qnan F32; fl_inf F32; fl_max F32] = [true; false; false] /\
  Binary.is_nan 24 128 (b32_of_bits (fl_qnan F32)) = true /\
  Binary.is_nan 53 1024 (b64_of_bits (fl_qnan F64)) = true /\
  bits_of_b32 (b32_of_bits (fl_max F32)) = fl_max F32 /\
  bits_of_b64 (b64_of_bits (fl_min F64)) = fl_min F64.
Proof. vm_compute. repeat split; reflexivity. Qed.
