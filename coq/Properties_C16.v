(* Properties_C16.v — C16: optional/required scalars: null, range, ordering and
   SBE defaults.  The proofs are in OptionalProofs.v, OptLitProofs.v and
   FpProofs.v, for the tables and expression trees taken from the source in
   SrcTablesProofs.v and SrcExprsProofs.v; only
   [C16_documented_rules_spelled_out], which unfolds [opt_spec] case by case,
   is stated and proved here alone.  [pvalid p v] says that [v] is a value
   of primitive type [p] (an integer in the range of the C++ type, resp. a
   32/64-bit IEEE-754 bit pattern); the statements about the model ask nothing
   else of the values. *)
From Coq Require Import ZArith Bool List String.
From Sbepp Require Import CInt Fp Optional OptLit FpProofs OptionalProofs OptLitProofs.
Import IEEE Opt.
Local Open Scope Z_scope.

(* a default-constructed or nullopt-constructed optional is null, for every
   type descriptor whatsoever (also when the null value is NaN) *)
Theorem C16_default_is_null : forall d,
  has_value d (opt_default d) = false /\
  to_bool d (opt_default d) = false /\
  opt_nullopt d = opt_default d /\
  has_value d (opt_nullopt d) = false.
Proof. exact default_is_null. Qed.
Print Assumptions C16_default_is_null.

(* has_value / operator bool: "is not the null value" *)
Theorem C16_has_value_spec : forall d v,
  pvalid (td_prim d) v = true -> pvalid (td_prim d) (td_null d) = true ->
  has_value d v = negb (spec_null d v) /\ to_bool d v = negb (spec_null d v).
Proof. exact has_value_spec. Qed.
Print Assumptions C16_has_value_spec.

Theorem C16_value_or_spec : forall d v dflt,
  pvalid (td_prim d) v = true -> pvalid (td_prim d) (td_null d) = true ->
  value_or d v dflt = (if spec_null d v then dflt else v).
Proof. exact value_or_spec. Qed.
Print Assumptions C16_value_or_spec.

(* in_range of optional and required types is min <= v <= max in the
   underlying order *)
Theorem C16_in_range_spec : forall d v,
  pvalid (td_prim d) v = true ->
  pvalid (td_prim d) (td_min d) = true -> pvalid (td_prim d) (td_max d) = true ->
  opt_in_range d v = spec_in_range d v /\ Req.req_in_range d v = spec_in_range d v.
Proof. exact in_range_spec. Qed.
Print Assumptions C16_in_range_spec.

Theorem C16_in_range_spec_int : forall d v t,
  kind (td_prim d) = KInt t ->
  spec_in_range d v = (td_min d <=? v) && (v <=? td_max d).
Proof. exact spec_in_range_int. Qed.
Print Assumptions C16_in_range_spec_int.

(* ==, !=, <, <=, >, >= of optional types, in the pre-C++20 implementation and
   in the C++20 one (operator== + operator<=> and the rewritten candidates),
   are the documented order: null equals only null and precedes every value,
   otherwise the underlying values compare *)
Theorem C16_compare_spec : forall d l r,
  pvalid (td_prim d) l = true -> pvalid (td_prim d) r = true ->
  pvalid (td_prim d) (td_null d) = true ->
  Pre20.all d l r = Some (cmp6_of_ord (spec_cmp d l r)) /\
  Cxx20.all d l r = Some (cmp6_of_ord (spec_cmp d l r)) /\
  Cxx20.cmp3 d l r = Some (spec_cmp d l r).
Proof. exact compare_spec. Qed.
Print Assumptions C16_compare_spec.

Theorem C16_required_compare_spec : forall d l r,
  pvalid (td_prim d) l = true -> pvalid (td_prim d) r = true ->
  Req.Pre20.all d l r = Some (cmp6_of_ord (spec_val_cmp (td_prim d) l r)) /\
  Req.Cxx20.all d l r = Some (cmp6_of_ord (spec_val_cmp (td_prim d) l r)) /\
  Req.Cxx20.cmp3 d l r = Some (spec_val_cmp (td_prim d) l r).
Proof. exact required_compare_spec. Qed.
Print Assumptions C16_required_compare_spec.

(* the three documented rules read off the operators themselves *)
Theorem C16_null_equals_only_null : forall d l r,
  pvalid (td_prim d) l = true -> pvalid (td_prim d) r = true ->
  pvalid (td_prim d) (td_null d) = true ->
  has_value d l = false ->
  opt_eq d l r = negb (has_value d r) /\
  opt_eq d r l = negb (has_value d r) /\
  Pre20.ne d l r = has_value d r /\
  Pre20.ne d r l = has_value d r.
Proof. exact null_equals_only_null. Qed.
Print Assumptions C16_null_equals_only_null.

Theorem C16_null_before_every_value : forall d l r,
  has_value d l = false -> has_value d r = true ->
  Pre20.all d l r = Some (cmp6_of_ord Less) /\ Cxx20.all d l r = Some (cmp6_of_ord Less) /\
  Pre20.all d r l = Some (cmp6_of_ord Greater) /\ Cxx20.all d r l = Some (cmp6_of_ord Greater).
Proof. exact null_before_every_value. Qed.
Print Assumptions C16_null_before_every_value.

Theorem C16_values_compare_underlying : forall d l r,
  pvalid (td_prim d) l = true -> pvalid (td_prim d) r = true ->
  has_value d l = true -> has_value d r = true ->
  Pre20.all d l r = Some (cmp6_of_ord (spec_val_cmp (td_prim d) l r)) /\
  Cxx20.all d l r = Some (cmp6_of_ord (spec_val_cmp (td_prim d) l r)).
Proof. exact values_compare_underlying. Qed.
Print Assumptions C16_values_compare_underlying.

(* the repair of has_value/==/!=/<=> leaves every integer type unchanged *)
Theorem C16_repair_preserves_integers : forall d l r t,
  kind (td_prim d) = KInt t ->
  pvalid (td_prim d) l = true -> pvalid (td_prim d) r = true ->
  pvalid (td_prim d) (td_null d) = true ->
  Legacy.has_value d l = has_value d l /\
  Legacy.value_or d l r = value_or d l r /\
  Legacy.Pre20.all d l r = Pre20.all d l r /\
  Legacy.Cxx20.all d l r = Cxx20.all d l r.
Proof. exact legacy_same_on_integers. Qed.
Print Assumptions C16_repair_preserves_integers.

(* the generator's 33 default literals denote the values of the built-in types *)
Theorem C16_defaults_table : forall w p,
  Lit.denote p (Lit.default_lit w p) = Lit.Ok (Lit.builtin_val w p).
Proof. exact defaults_table. Qed.
Print Assumptions C16_defaults_table.

Theorem C16_defaults_are_builtin : forall p,
  Lit.denote p (Lit.gen_value Lit.WMin p None) = Lit.Ok (td_min (builtin p)) /\
  Lit.denote p (Lit.gen_value Lit.WMax p None) = Lit.Ok (td_max (builtin p)) /\
  Lit.denote p (Lit.gen_value Lit.WNull p None) = Lit.Ok (td_null (builtin p)).
Proof. exact defaults_are_builtin. Qed.
Print Assumptions C16_defaults_are_builtin.

(* every explicit integer minValue/maxValue/nullValue text the validator
   accepts (std::from_chars) is reproduced exactly by the generated constant *)
Theorem C16_explicit_int_exact : forall p w s z,
  Lit.from_chars p (list_ascii_of_string s) = Some z ->
  Lit.denote p (Lit.gen_value w p (Some s)) = Lit.Ok z.
Proof. exact explicit_int_exact_string. Qed.
Print Assumptions C16_explicit_int_exact.

Theorem C16_explicit_fp_specials :
  Lit.denote PFloat (Lit.gen_value Lit.WNull PFloat (Some "NaN"%string)) = Lit.Ok (fl_qnan F32) /\
  Lit.denote PFloat (Lit.gen_value Lit.WMax PFloat (Some "INF"%string)) = Lit.Ok (fl_inf F32) /\
  Lit.denote PFloat (Lit.gen_value Lit.WMax PFloat (Some "+INF"%string)) = Lit.Ok (fl_inf F32) /\
  Lit.denote PFloat (Lit.gen_value Lit.WMin PFloat (Some "-INF"%string)) = Lit.Ok (fneg F32 (fl_inf F32)) /\
  Lit.denote PDouble (Lit.gen_value Lit.WNull PDouble (Some "NaN"%string)) = Lit.Ok (fl_qnan F64) /\
  Lit.denote PDouble (Lit.gen_value Lit.WMax PDouble (Some "INF"%string)) = Lit.Ok (fl_inf F64) /\
  Lit.denote PDouble (Lit.gen_value Lit.WMax PDouble (Some "+INF"%string)) = Lit.Ok (fl_inf F64) /\
  Lit.denote PDouble (Lit.gen_value Lit.WMin PDouble (Some "-INF"%string)) = Lit.Ok (fneg F64 (fl_inf F64)).
Proof. exact explicit_fp_specials. Qed.
Print Assumptions C16_explicit_fp_specials.

(* the floating-point order used by the model and the specification (keys from
   biased exponent and mantissa) is the order of the real numbers the patterns
   denote ([fkey_real]: sign * |x| * 2^(bias+mbits) as an exact integer), for
   every pair of bit patterns *)
Theorem C16_float_order_is_real_order : forall f a b,
  (fkey f a ?= fkey f b) = (fkey_real f a ?= fkey_real f b).
Proof. exact fkey_order_is_real_order. Qed.
Print Assumptions C16_float_order_is_real_order.

From Sbepp Require Import SrcTables SrcTablesProofs.

(* The same statements about the tables AS THEY ARE WRITTEN IN /repo NOW:
   SrcTables.v is regenerated from types_compiler.hpp / sbepp.hpp on every run
   (harness/srctables.py), so an edited default literal or built-in definition
   breaks these theorems. *)
Theorem C16_source_default_literals_denote_sbe_defaults : stmt_src_defaults_denote.
Proof. exact src_defaults_denote. Qed.
Print Assumptions C16_source_default_literals_denote_sbe_defaults.

Theorem C16_source_default_literals_are_the_modelled_ones : stmt_src_defaults_are_model.
Proof. exact src_defaults_are_model. Qed.
Print Assumptions C16_source_default_literals_are_the_modelled_ones.

Theorem C16_source_builtin_types_expose_sbe_defaults : stmt_src_builtins.
Proof. exact src_builtins_ok. Qed.
Print Assumptions C16_source_builtin_types_expose_sbe_defaults.

Theorem C16_source_wrapper_of_each_primitive : stmt_src_wrappers.
Proof. exact src_wrappers. Qed.
Print Assumptions C16_source_wrapper_of_each_primitive.

(* ---- optional_base<T, Derived> of /repo's CURRENT sbepp.hpp as clang types it
   (SrcExprs.v, regenerated on every run by harness/srcexprs.py; every call
   inlined; Derived::min/max/null_value() are arbitrary values of T), for the
   eight integer types: has_value, in_range and the six pre-C++20 comparison
   operators follow the documented rules for ALL values ---- *)
From Coq Require Import String List.
From Sbepp Require Import CInt CExpr SrcExprs SrcExprsProofs.
Import ListNotations.

Theorem C16_source_optional_follows_documented_rules : forall f T v1 v2 null mn mx,
  in_range T v1 = true -> in_range T v2 = true -> in_range T null = true ->
  in_range T mn = true -> in_range T mx = true ->
  effs_eval (opt_env f v1 v2 null mn mx) (src_opt f T) = Some [zb (opt_spec f v1 v2 null mn mx)].
Proof. exact src_opt_is_spec. Qed.
Print Assumptions C16_source_optional_follows_documented_rules.

(* the rules, spelled out (what opt_spec says): null equals only null and orders before every value *)
Theorem C16_documented_rules_spelled_out : forall v1 v2 null mn mx,
  opt_spec FHas v1 v2 null mn mx = negb (Z.eqb v1 null) /\
  (Z.eqb v1 null = true -> Z.eqb v2 null = false ->
     opt_spec FEq v1 v2 null mn mx = false /\ opt_spec FLt v1 v2 null mn mx = true /\
     opt_spec FLe v1 v2 null mn mx = true /\ opt_spec FGt v1 v2 null mn mx = false /\
     opt_spec FGe v1 v2 null mn mx = false /\ opt_spec FNe v1 v2 null mn mx = true) /\
  (Z.eqb v1 null = true -> Z.eqb v2 null = true ->
     opt_spec FEq v1 v2 null mn mx = true /\ opt_spec FLt v1 v2 null mn mx = false /\
     opt_spec FLe v1 v2 null mn mx = true /\ opt_spec FGe v1 v2 null mn mx = true) /\
  (Z.eqb v1 null = false -> Z.eqb v2 null = false ->
     opt_spec FEq v1 v2 null mn mx = Z.eqb v1 v2 /\ opt_spec FLt v1 v2 null mn mx = Z.ltb v1 v2 /\
     opt_spec FLe v1 v2 null mn mx = Z.leb v1 v2 /\ opt_spec FGt v1 v2 null mn mx = Z.ltb v2 v1 /\
     opt_spec FGe v1 v2 null mn mx = Z.leb v2 v1 /\ opt_spec FNe v1 v2 null mn mx = negb (Z.eqb v1 v2)).
Proof.
  intros v1 v2 null mn mx. unfold opt_spec.
  split; [reflexivity|]. split; [|split]; intros E1 E2; rewrite E1, E2; cbn; repeat split; reflexivity.
Qed.
Print Assumptions C16_documented_rules_spelled_out.

(* required_base<T, Derived> (same translator): comparisons are the comparisons of the underlying values,
   in_range is min_value() <= value <= max_value(), for all values of the eight integer types *)
Local Open Scope string_scope.
Theorem C16_source_required_compares_values : forall o T v1 v2,
  in_range T v1 = true -> in_range T v2 = true ->
  effs_eval [("lhs.val", v1); ("rhs.val", v2)] (src_req_cmp o T) = Some [zb (ecmp o v1 v2)].
Proof. exact src_req_cmp_is_spec. Qed.
Print Assumptions C16_source_required_compares_values.

Theorem C16_source_required_in_range : forall T v mn mx,
  in_range T v = true -> in_range T mn = true -> in_range T mx = true ->
  effs_eval [("val", v); ("min_value()", mn); ("max_value()", mx)] (src_req_in_range T)
  = Some [zb ((mn <=? v)%Z && (v <=? mx)%Z)].
Proof. exact src_req_in_range_spec. Qed.
Print Assumptions C16_source_required_in_range.
