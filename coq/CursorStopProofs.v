(* CursorStopProofs.v — the stop-aware traversal of CursorStop.v against the
   complete traversal of Cursor.v: stopping at callback k yields exactly the
   first k events of the complete visit, for ALL inputs (no well-formedness
   hypothesis); with the image theorem of CursorProofs.v, the first k events
   of [ev_level] on encoded images. *)
From Coq Require Import ZArith List Bool Lia.
From Sbepp Require Import CInt Bytes Msg Layout Wire MsgSpec Cursor CursorSpec CursorProofs
  CursorStop.
Import ListNotations.
Local Open Scope Z_scope.

(* (a) the complete visit reports [evs]; a visitor whose callback number k+1
   returns true (k < number of callbacks) sees exactly the first k events and
   the visit reports "stopped" *)
Definition stmt_stop_prefix : Prop :=
  forall be b m cl base evs c k,
    trav_message be b m cl base = COk evs c ->
    (k < length evs)%nat ->
    trav_message_stop be b m cl base k = FStopped (firstn k evs).

(* (b) a budget that is never exhausted changes nothing *)
Definition stmt_stop_beyond : Prop :=
  forall be b m cl base evs c k,
    trav_message be b m cl base = COk evs c ->
    (length evs <= k)%nat ->
    trav_message_stop be b m cl base k = FDone evs c.

(* (b, converse) a stop run that completes is the complete run *)
Definition stmt_stop_done_complete : Prop :=
  forall be b m cl base evs c k,
    trav_message_stop be b m cl base k = FDone evs c ->
    trav_message be b m cl base = COk evs c /\ (length evs <= k)%nat.

(* (c) no hypothesis on the complete run: the events of a run with budget k
   are a prefix of the events of every run with a larger budget *)
Definition stmt_stop_events_prefix_general : Prop :=
  forall be b m cl base k k' es es',
    (k <= k')%nat ->
    sfinal_events (trav_message_stop be b m cl base k) = Some es ->
    sfinal_events (trav_message_stop be b m cl base k') = Some es' ->
    exists rest, es' = es ++ rest.

(* (c') a stopped run made exactly k callbacks proceed; completion and
   failures do not depend on a larger budget *)
Definition stmt_stop_budget_general : Prop :=
  forall be b m cl base k,
    match trav_message_stop be b m cl base k with
    | FStopped es => length es = k
    | FDone es c =>
      (length es <= k)%nat /\
      forall k', (k <= k')%nat -> trav_message_stop be b m cl base k' = FDone es c
    | FAssert => forall k', (k <= k')%nat -> trav_message_stop be b m cl base k' = FAssert
    | FOob => forall k', (k <= k')%nat -> trav_message_stop be b m cl base k' = FOob
    end.

(* (c'') a failing complete run: the stop run either stops before the failure
   or fails the same way *)
Definition stmt_stop_failure_general : Prop :=
  forall be b m cl base k,
    (trav_message be b m cl base = CAssert ->
     trav_message_stop be b m cl base k = FAssert \/
     exists es, trav_message_stop be b m cl base k = FStopped es) /\
    (trav_message be b m cl base = COob ->
     trav_message_stop be b m cl base k = FOob \/
     exists es, trav_message_stop be b m cl base k = FStopped es).

(* corollary of (a) and trav_message_enc'': on an encoded image, stopping at
   callback k yields the first k events of the declarative event list *)
Definition stmt_stop_prefix_enc : Prop :=
  forall be m cl hdrbg v pre post k,
    wf_message be m hdrbg v ->
    wf_clevel (m_hdr_size m) (m_level m) cl ->
    fields_fit (m_level m) v ->
    len (pre ++ enc_message be m hdrbg v ++ post) < 2 ^ 64 ->
    flat_blocks_pos (m_level m) v ->
    (k < length (ev_level be (m_level m) v (len pre + m_hdr_size m)))%nat ->
    trav_message_stop be (pre ++ enc_message be m hdrbg v ++ post) m cl (len pre) k
    = FStopped (firstn k (ev_level be (m_level m) v (len pre + m_hdr_size m))).

Definition stmt_stop_beyond_enc : Prop :=
  forall be m cl hdrbg v pre post k,
    wf_message be m hdrbg v ->
    wf_clevel (m_hdr_size m) (m_level m) cl ->
    fields_fit (m_level m) v ->
    len (pre ++ enc_message be m hdrbg v ++ post) < 2 ^ 64 ->
    flat_blocks_pos (m_level m) v ->
    (length (ev_level be (m_level m) v (len pre + m_hdr_size m)) <= k)%nat ->
    trav_message_stop be (pre ++ enc_message be m hdrbg v ++ post) m cl (len pre) k
    = FDone (ev_level be (m_level m) v (len pre + m_hdr_size m))
            (len pre + len (enc_message be m hdrbg v)).

(* a stop run as a function of the budget of callbacks; [sbind X Y] runs [Y] from
   the events, cursor and remaining budget [X] ends with *)
Definition sbind (X : nat -> sres) (Y : list event -> Z -> nat -> sres) (k : nat) : sres :=
  match X k with
  | SOk a c r => Y a c r
  | SStop a => SStop a
  | SAssert => SAssert
  | SOob => SOob
  end.

(* a callback: stop when the budget is exhausted, otherwise go on with one less *)
Definition tick (acc : list event) (X : nat -> sres) (k : nat) : sres :=
  match k with O => SStop acc | S k' => X k' end.

(* The stop run of a sub-traversal whose complete run is [R], as a function of
   the budget [k].  [new]: the events the complete run records before it ends
   or fails (latest first); [t]: the least budget that is not exhausted.  A
   complete run that succeeds has t = length new.  One that fails has
   t = length new when an accessor fails (accessors run before their callback
   is asked), t = length new + 1 when what a proceeding callback reads fails. *)
Definition nf (R : cres (list event)) (new : list event) (t : nat) (acc : list event) (k : nat)
  : sres :=
  if (k <? t)%nat then SStop (skipn (length new - k) new ++ acc)
  else match R with
       | COk _ c => SOk (new ++ acc) c (k - length new)
       | CAssert => SAssert
       | COob => SOob
       end.

(* the stop run [X], started with the events [acc], is determined by the complete run
   [R] of the same sub-traversal: it is [nf R new t acc] for some [new] and [t] *)
Definition good (R : cres (list event)) (X : nat -> sres) (acc : list event) : Prop :=
  exists new t,
    (length new <= t <= S (length new))%nat /\
    (forall a c, R = COk a c -> a = new ++ acc /\ t = length new) /\
    forall k, X k = nf R new t acc k.

Lemma good_ext R X X' acc : (forall k, X k = X' k) -> good R X' acc -> good R X acc.
Proof.
  intros He (new & t & H1 & H2 & H3). exists new, t. split; [exact H1|]. split; [exact H2|].
  intros k. rewrite He. apply H3.
Qed.

Lemma good_ret acc c : good (COk acc c) (SOk acc c) acc.
Proof.
  exists [], 0%nat. split; [cbn; lia|]. split.
  - intros a c0 [= <- <-]. split; reflexivity.
  - intros k. unfold nf. cbn. now rewrite Nat.sub_0_r.
Qed.

Lemma good_assert acc : good CAssert (fun _ => SAssert) acc.
Proof. exists [], 0%nat. split; [cbn; lia|]. split; [discriminate|reflexivity]. Qed.

Lemma good_oob acc : good COob (fun _ => SOob) acc.
Proof. exists [], 0%nat. split; [cbn; lia|]. split; [discriminate|reflexivity]. Qed.

(* a callback that proceeds and then fails (reading what the callback reads) *)
Lemma good_tick_oob acc : good COob (tick acc (fun _ => SOob)) acc.
Proof. exists [], 1%nat. split; [cbn; lia|]. split; [discriminate|]. intros [|k]; reflexivity. Qed.

Lemma good_tick e acc R X : good R X (e :: acc) -> good R (tick acc X) acc.
Proof.
  intros (new & t & Ht & HR & HX). exists (new ++ [e]), (S t).
  assert (Hl : length (new ++ [e]) = S (length new)) by (rewrite app_length; cbn; lia).
  split; [lia|]. split.
  - intros a c HRe. destruct (HR a c HRe) as [-> ->]. split; [now rewrite <- app_assoc|lia].
  - intros [|k]; cbn [tick]; unfold nf.
    + cbn [Nat.ltb Nat.leb]. now rewrite Nat.sub_0_r, skipn_all.
    + rewrite HX. unfold nf. change (S k <? S t)%nat with (k <? t)%nat.
      destruct (Nat.ltb_spec k t).
      * rewrite skipn_app, Hl, <- app_assoc.
        replace (S (length new) - S k - length new)%nat with 0%nat by lia. reflexivity.
      * rewrite Hl, <- app_assoc. destruct R; reflexivity.
Qed.

Lemma good_bind RX X RY Y acc :
  good RX X acc -> (forall a c, good (RY a c) (Y a c) a) ->
  good (cbind RX RY) (sbind X Y) acc.
Proof.
  intros (new1 & t1 & Ht1 & HR1 & HX) HY. destruct RX as [a1 c1| |].
  1:{ destruct (HR1 a1 c1 eq_refl) as [-> ->]. cbn [cbind].
    destruct (HY (new1 ++ acc) c1) as (new2 & t2 & Ht2 & HR2 & HY2).
    exists (new2 ++ new1), (t2 + length new1)%nat. rewrite app_length. split; [clear - Ht1 Ht2; lia|]. split.
    + intros a c HRe. destruct (HR2 a c HRe) as [-> ->]. split; [now rewrite app_assoc|reflexivity].
    + intros k. unfold sbind. rewrite HX. unfold nf at 1.
      destruct (Nat.ltb_spec k (length new1)) as [Hk|Hk].
      * (* the first part stops *)
        unfold nf.
        rewrite app_length, (proj2 (Nat.ltb_lt _ _)), skipn_app, (skipn_all2 new2)
          by (clear - Hk Ht1 Ht2; lia).
        cbn [app]. do 3 f_equal. clear - Hk. lia.
      * rewrite HY2. unfold nf. rewrite app_length.
        destruct (Nat.ltb_spec (k - length new1) t2) as [Hk2|Hk2];
          destruct (Nat.ltb_spec k (t2 + length new1)) as [Hk3|Hk3];
          [|clear - Hk Hk2 Hk3; lia|clear - Hk Hk2 Hk3; lia|].
        -- rewrite skipn_app, <- app_assoc.
           replace (length new2 + length new1 - k - length new2)%nat with 0%nat by (clear - Hk; lia).
           do 3 f_equal. clear - Hk. lia.
        -- destruct (RY (new1 ++ acc) c1); [|reflexivity|reflexivity].
           now rewrite app_assoc, (Nat.add_comm (length new2)), Nat.sub_add_distr. }
  (* a first part that fails: the whole behaves as that part *)
  all: exists new1, t1; (split; [exact Ht1|]); (split; [discriminate|]);
    intros k; unfold sbind; rewrite HX; unfold nf; destruct (k <? t1)%nat; reflexivity.
Qed.

Lemma strav_fields_cons v a r k c acc bud :
  strav_fields v (a :: r) k c acc bud =
  match cur_field WPlain v a c with
  | COk addr c' => tick acc (strav_fields v r (S k) c' (EField k addr :: acc)) bud
  | CAssert => SAssert
  | COob => SOob
  end.
Proof. reflexivity. Qed.

Lemma good_fields v : forall fs k c acc,
  good (trav_fields v fs k c acc) (strav_fields v fs k c acc) acc.
Proof.
  induction fs as [|a r IH]; intros k c acc; [apply good_ret|].
  eapply good_ext; [intros bud; apply strav_fields_cons|]. cbn [trav_fields].
  destruct (cur_field WPlain v a c) as [addr c'| |];
    [apply (good_tick (EField k addr)), IH|apply good_assert|apply good_oob].
Qed.

Lemma strav_datas_cons be b v t r k first p c acc bud :
  strav_datas be b v (t :: r) k first p c acc bud =
  match cur_data WPlain first v p (data_size_at be b t) c with
  | COk s c' =>
    tick acc
      (fun bud' =>
         match rd be b s t with
         | None => SOob
         | Some n =>
           strav_datas be b v r (S k) false
             (if first then Some c'
              else obind p (fun p0 => obind (data_size_at be b t p0) (fun z => Some (p0 + z))))
             c' (EData k s n :: acc) bud'
         end) bud
  | CAssert => SAssert
  | COob => SOob
  end.
Proof. reflexivity. Qed.

Lemma good_datas be b v : forall ds k first p c acc,
  good (trav_datas be b v ds k first p c acc) (strav_datas be b v ds k first p c acc) acc.
Proof.
  induction ds as [|t r IH]; intros k first p c acc; [apply good_ret|].
  eapply good_ext; [intros bud; apply strav_datas_cons|]. cbn [trav_datas].
  destruct (cur_data WPlain first v p (data_size_at be b t) c) as [s c'| |];
    [|apply good_assert|apply good_oob].
  destruct (rd be b s t) as [n|]; [apply (good_tick (EData k s n)), IH|apply good_tick_oob].
Qed.

(* the entry loop of [strav_groups]; defined over section variables, it unfolds
   to the very [fix] inside [strav_groups] *)
Section Entries.
  Variables (be : bool) (b : list Z) (fuel : nat) (l : level) (cl : clevel) (bl lvend : Z).

  Fixpoint strav_entries (j : nat) (n c : Z) (acc : list event) (bud : nat) {struct j} : sres :=
    if n <=? 0 then SOk acc c bud else
    match j with
    | O => SOob
    | S j' =>
      tick acc (sbind (strav_level be b fuel l cl (entry_view bl lvend c) (entry_cursor l cl bl c)
                         (EEntry c :: acc))
                      (fun acc' c' => strav_entries j' (n - 1) c' acc')) bud
    end.
End Entries.

Lemma strav_groups_cons be b fuel d cbl l rest cl crest v k first p c acc bud :
  strav_groups be b fuel (GCons d cbl l rest) (CGCons cl crest) v k first p c acc bud =
  match cur_group WPlain first v p (d_size d) (fun _ => None) c with
  | COk s c1 =>
    tick acc
      (fun bud0 =>
         match rd be b (s + d_bl_off d) (d_bl_t d), rd be b (s + d_n_off d) (d_n_t d) with
         | Some bl, Some n =>
           sbind (strav_entries be b fuel l cl bl (lv_end v) fuel n c1 (EGroup k s n :: acc))
                 (fun acc' c' =>
                    strav_groups be b fuel rest crest v (S k) false
                      (obind p (fun p0 => groups_end be b fuel (GCons d cbl l GNil) p0))
                      c' acc') bud0
         | _, _ => SOob
         end) bud
  | CAssert => SAssert
  | COob => SOob
  end.
Proof. reflexivity. Qed.

Lemma good_entries be b fuel l cl bl lvend :
  (forall v c acc,
     good (trav_level be b fuel l cl v c acc) (strav_level be b fuel l cl v c acc) acc) ->
  forall j n c acc,
    good (trav_entries be b fuel l cl bl lvend j n c acc)
         (strav_entries be b fuel l cl bl lvend j n c acc) acc.
Proof.
  intros Hl. induction j as [|j IH]; intros n c acc; rewrite trav_entries_eq;
    cbn [strav_entries]; (destruct (n <=? 0); [apply good_ret|]); [apply good_oob|].
  apply (good_tick (EEntry c)), good_bind; [apply Hl|]. intros a c'. apply IH.
Qed.

Lemma strav_level_eq be b fuel fs gs ds cl v c acc bud :
  strav_level be b fuel (Level fs gs ds) cl v c acc bud =
  sbind (strav_fields v (clevel_fields cl) 0 c acc) (fun a1 c1 =>
  sbind (strav_groups be b fuel gs (clevel_groups cl) v 0 true (Some (block_end v)) c1 a1)
        (fun a2 c2 =>
  strav_datas be b v ds 0 (groups_empty gs) (groups_end be b fuel gs (block_end v)) c2 a2)) bud.
Proof. reflexivity. Qed.

Lemma good_level be b fuel : forall l cl v c acc,
  good (trav_level be b fuel l cl v c acc) (strav_level be b fuel l cl v c acc) acc.
Proof.
  refine (level_mind
    (fun l => forall cl v c acc,
       good (trav_level be b fuel l cl v c acc) (strav_level be b fuel l cl v c acc) acc)
    (fun gs => forall cgs v k first p c acc,
       good (trav_groups be b fuel gs cgs v k first p c acc)
            (strav_groups be b fuel gs cgs v k first p c acc) acc) _ _ _).
  - intros fs gs Hgs ds cl v c acc.
    eapply good_ext; [intros bud; apply strav_level_eq|]. rewrite trav_level_cbind.
    apply good_bind; [apply good_fields|]. intros a1 c1.
    apply good_bind; [apply Hgs|]. intros a2 c2. apply good_datas.
  - intros cgs v k first p c acc. apply good_ret.
  - intros d cbl l Hl rest Hrest [|cl crest] v k first p c acc; [apply good_oob|].
    eapply good_ext; [intros bud; apply strav_groups_cons|]. rewrite trav_groups_cbind.
    destruct (cur_group WPlain first v p (d_size d) (fun _ => None) c) as [s c1| |];
      [|apply good_assert|apply good_oob].
    destruct (rd be b (s + d_bl_off d) (d_bl_t d)) as [bl|]; [|apply good_tick_oob].
    destruct (rd be b (s + d_n_off d) (d_n_t d)) as [n|]; [|apply good_tick_oob].
    apply (good_tick (EGroup k s n)), good_bind; [|intros a c'; apply Hrest].
    apply good_entries. intros v0 c0 acc0. apply Hl.
Qed.

(* every stop run of a message, from its complete run: [evs] are the events the
   complete run reports before it ends or fails, [t] the least budget that is
   not exhausted *)
Lemma stop_normal_form be b m cl base :
  exists evs t,
    (length evs <= t <= S (length evs))%nat /\
    (forall e c, trav_message be b m cl base = COk e c -> e = evs /\ t = length evs) /\
    forall k, trav_message_stop be b m cl base k =
      if (k <? t)%nat then FStopped (firstn k evs)
      else match trav_message be b m cl base with
           | COk _ c => FDone evs c
           | CAssert => FAssert
           | COob => FOob
           end.
Proof.
  unfold trav_message, trav_message_stop.
  destruct (msg_block_length be b m base) as [bl|].
  - cbv zeta.
    destruct (good_level be b (default_fuel b) (m_level m) cl
                {| lv_start := base; lv_level := base + m_hdr_size m; lv_bl := bl;
                   lv_end := len b |}
                (if is_empty_level (m_level m) cl then base + m_hdr_size m + bl
                 else base + m_hdr_size m) []) as (new & t & Ht & HR & HX).
    exists (rev new), t. rewrite rev_length. split; [exact Ht|]. split.
    + intros e c He.
      destruct (trav_level be b (default_fuel b) (m_level m) cl _ _ []) as [a c1| |];
        try discriminate He.
      injection He as <- <-. destruct (HR a c1 eq_refl) as [-> ->]. now rewrite app_nil_r.
    + intros k. rewrite HX. unfold nf. rewrite !app_nil_r. destruct (k <? t)%nat.
      * now rewrite firstn_rev.
      * destruct (trav_level be b (default_fuel b) (m_level m) cl _ _ []); reflexivity.
  - exists [], 0%nat. split; [cbn; lia|]. split; [discriminate|reflexivity].
Qed.

Theorem stop_total be b m cl base evs c :
  trav_message be b m cl base = COk evs c ->
  forall k, trav_message_stop be b m cl base k
            = if (k <? length evs)%nat then FStopped (firstn k evs) else FDone evs c.
Proof.
  intros Ht k. destruct (stop_normal_form be b m cl base) as (evs' & t & _ & HR & HS).
  destruct (HR evs c Ht) as [<- ->]. now rewrite HS, Ht.
Qed.

Theorem stop_prefix : stmt_stop_prefix.
Proof.
  intros be b m cl base evs c k Ht Hk.
  now rewrite (stop_total _ _ _ _ _ _ _ Ht), (proj2 (Nat.ltb_lt _ _) Hk).
Qed.
Print Assumptions stop_prefix.

Theorem stop_beyond : stmt_stop_beyond.
Proof.
  intros be b m cl base evs c k Ht Hk.
  now rewrite (stop_total _ _ _ _ _ _ _ Ht), (proj2 (Nat.ltb_ge _ _) Hk).
Qed.
Print Assumptions stop_beyond.

Theorem stop_done_complete : stmt_stop_done_complete.
Proof.
  unfold stmt_stop_done_complete. intros be b m cl base evs c k Hs.
  destruct (stop_normal_form be b m cl base) as (evs' & t & _ & HR & HS).
  rewrite HS in Hs. destruct (Nat.ltb_spec k t); [discriminate Hs|].
  destruct (trav_message be b m cl base) as [e c1| |]; try discriminate Hs.
  injection Hs as <- <-. destruct (HR e c1 eq_refl) as [-> ->]. split; [reflexivity|lia].
Qed.
Print Assumptions stop_done_complete.

Theorem stop_events_prefix_general : stmt_stop_events_prefix_general.
Proof.
  unfold stmt_stop_events_prefix_general. intros be b m cl base k k' es es' Hk He He'.
  destruct (stop_normal_form be b m cl base) as (evs & t & _ & HR & HS).
  (* a run that does not fail reports the first k events *)
  assert (H : forall k es, sfinal_events (trav_message_stop be b m cl base k) = Some es ->
                           es = firstn k evs).
  { intros k0 es0. rewrite HS. destruct (Nat.ltb_spec k0 t); [now intros [= <-]|].
    destruct (trav_message be b m cl base) as [e c| |]; try discriminate. intros [= <-].
    destruct (HR e c eq_refl) as [_ ->]. now rewrite firstn_all2. }
  rewrite (H k es He), (H k' es' He'). exists (skipn k (firstn k' evs)).
  rewrite <- (firstn_skipn k (firstn k' evs)) at 1. now rewrite firstn_firstn, Nat.min_l.
Qed.
Print Assumptions stop_events_prefix_general.

Theorem stop_budget_general : stmt_stop_budget_general.
Proof.
  unfold stmt_stop_budget_general. intros be b m cl base k.
  destruct (stop_normal_form be b m cl base) as (evs & t & Ht & HR & HS).
  rewrite HS. destruct (Nat.ltb_spec k t); [apply firstn_length_le; lia|].
  assert (Hk' : forall k', (k <= k')%nat -> (k' <? t)%nat = false)
    by (intros k' Hk'; apply Nat.ltb_ge; lia).
  destruct (trav_message be b m cl base) as [e c| |] eqn:E.
  1: destruct (HR e c eq_refl) as [_ ->]; split; [assumption|].
  all: intros k' Hk; now rewrite HS, (Hk' k' Hk).
Qed.
Print Assumptions stop_budget_general.

Theorem stop_failure_general : stmt_stop_failure_general.
Proof.
  unfold stmt_stop_failure_general. intros be b m cl base k.
  destruct (stop_normal_form be b m cl base) as (evs & t & _ & _ & HS).
  rewrite HS.
  split; intros ->; (destruct (k <? t)%nat; [right; eexists; reflexivity|left; reflexivity]).
Qed.
Print Assumptions stop_failure_general.

Theorem stop_prefix_enc : stmt_stop_prefix_enc.
Proof.
  unfold stmt_stop_prefix_enc. intros be m cl hdrbg v pre post k Hwf Hcl Hff Hlt Hpos Hk.
  exact (stop_prefix be _ m cl (len pre) _ _ k
           (trav_message_enc'' be m cl hdrbg v pre post Hwf Hcl Hff Hlt Hpos) Hk).
Qed.
Print Assumptions stop_prefix_enc.

Theorem stop_beyond_enc : stmt_stop_beyond_enc.
Proof.
  unfold stmt_stop_beyond_enc. intros be m cl hdrbg v pre post k Hwf Hcl Hff Hlt Hpos Hk.
  exact (stop_beyond be _ m cl (len pre) _ _ k
           (trav_message_enc'' be m cl hdrbg v pre post Hwf Hcl Hff Hlt Hpos) Hk).
Qed.
Print Assumptions stop_beyond_enc.

(* non-vacuity: a concrete message *)
(* header 8 bytes (blockLength u16 at 0); root: one 1-byte field, one group
   (dimension 4 bytes: blockLength u16 at 0, numInGroup u16 at 2) whose
   entries have one 2-byte field, one data member with a u8 length *)
Module Ex.
  Definition d : dim :=
    {| d_size := 4; d_bl_off := 0; d_bl_t := U16; d_n_off := 2; d_n_t := U16; d_fills := [] |}.
  Definition m : message :=
    {| m_hdr_size := 8; m_bl_off := 0; m_bl_t := U16; m_cbl := 1; m_fills := [];
       m_level := Level [ {| f_off := 0; f_size := 1 |} ]
                        (GCons d 2 (Level [ {| f_off := 0; f_size := 2 |} ] GNil []) GNil)
                        [U8] |}.
  Definition cl : clevel :=
    CLevel [ {| ca_rel := 0; ca_abs := 8; ca_size := 1; ca_last := true; ca_view := false |} ]
           (CGCons (CLevel [ {| ca_rel := 0; ca_abs := 0; ca_size := 2; ca_last := true;
                                ca_view := false |} ] CGNil) CGNil).
  Definition hdrbg : list Z := [0;0;0;0;0;0;0;0].
  Definition v : vlevel :=
    VLevel [7]
      (VGCons [0;0;0;0]
         (VECons (VLevel [1;2] VGNil []) (VECons (VLevel [3;4] VGNil []) VENil)) VGNil)
      [[9;9;9]].
  Definition img : list Z := enc_message false m hdrbg v.

  Definition evs : list event :=
    [EField 0 8; EGroup 0 9 2; EEntry 13; EField 0 13; EEntry 15; EField 0 15; EData 0 17 3].

  Example image : img = [1;0;0;0;0;0;0;0; 7; 2;0;2;0; 1;2; 3;4; 3;9;9;9].
  Proof. vm_compute. reflexivity. Qed.

  Example complete : trav_message false img m cl 0 = COk evs 21.
  Proof. vm_compute. reflexivity. Qed.

  Example declarative : ev_level false (m_level m) v 8 = evs.
  Proof. vm_compute. reflexivity. Qed.

  Example stops :
    map (trav_message_stop false img m cl 0) [0; 1; 2; 3; 4; 5; 6]%nat
    = [ FStopped [];
        FStopped [EField 0 8];
        FStopped [EField 0 8; EGroup 0 9 2];
        FStopped [EField 0 8; EGroup 0 9 2; EEntry 13];
        FStopped [EField 0 8; EGroup 0 9 2; EEntry 13; EField 0 13];
        FStopped [EField 0 8; EGroup 0 9 2; EEntry 13; EField 0 13; EEntry 15];
        FStopped [EField 0 8; EGroup 0 9 2; EEntry 13; EField 0 13; EEntry 15; EField 0 15] ].
  Proof. vm_compute. reflexivity. Qed.

  Example completes :
    map (trav_message_stop false img m cl 0) [7; 8; 100]%nat
    = [FDone evs 21; FDone evs 21; FDone evs 21].
  Proof. vm_compute. reflexivity. Qed.

  (* the accessor runs before the callback: on an image cut inside the data
     member the complete run is out of bounds, and so is the stop run whose
     budget is exhausted exactly at on_data; smaller budgets stop earlier *)
  Definition cut : list Z := firstn 17 img.

  Example cut_complete : trav_message false cut m cl 0 = COob.
  Proof. vm_compute. reflexivity. Qed.

  Example cut_stops :
    map (trav_message_stop false cut m cl 0) [5; 6; 7]%nat
    = [ FStopped [EField 0 8; EGroup 0 9 2; EEntry 13; EField 0 13; EEntry 15];
        FOob; FOob ].
  Proof. vm_compute. reflexivity. Qed.

  (* a misplaced cursor accessor (second field of the root given the offset of
     the first): the assertion fires before on_field is asked to stop *)
  Definition m2 : message :=
    {| m_hdr_size := 8; m_bl_off := 0; m_bl_t := U16; m_cbl := 2; m_fills := [];
       m_level := Level [ {| f_off := 0; f_size := 1 |}; {| f_off := 1; f_size := 1 |} ]
                        GNil [] |}.
  Definition cl2_bad : clevel :=
    CLevel [ {| ca_rel := 0; ca_abs := 8; ca_size := 1; ca_last := false; ca_view := false |};
             {| ca_rel := 0; ca_abs := 8; ca_size := 1; ca_last := true; ca_view := false |} ]
           CGNil.
  Definition img2 : list Z := [2;0;0;0;0;0;0;0; 5;6].

  Example bad_complete : trav_message false img2 m2 cl2_bad 0 = CAssert.
  Proof. vm_compute. reflexivity. Qed.

  Example bad_stops :
    map (trav_message_stop false img2 m2 cl2_bad 0) [0; 1; 2]%nat
    = [FStopped []; FAssert; FAssert].
  Proof. vm_compute. reflexivity. Qed.

  (* the hypotheses of the image corollaries are satisfiable *)
  Lemma hyps :
    wf_message false m hdrbg v /\ wf_clevel (m_hdr_size m) (m_level m) cl /\
    fields_fit (m_level m) v /\ len ([] ++ img ++ []) < 2 ^ 64 /\
    flat_blocks_pos (m_level m) v.
  Proof.
    (* the conjuncts are split before they are evaluated: normalising the whole
       statement first is slow to check *)
    repeat split; vm_compute; try reflexivity; try discriminate; try (left; discriminate);
      repeat constructor; vm_compute; repeat split; discriminate.
  Qed.

  Example stop_prefix_enc_instance :
    trav_message_stop false ([] ++ img ++ []) m cl (len []) 3%nat = FStopped (firstn 3 evs).
  Proof.
    destruct hyps as (H1 & H2 & H3 & H4 & H5).
    rewrite <- declarative.
    apply (stop_prefix_enc false m cl hdrbg v [] [] 3%nat H1 H2 H3 H4 H5).
    vm_compute. lia.
  Qed.
End Ex.
