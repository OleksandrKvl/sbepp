(* PipelineProofs.v — proofs about Pipeline.v (C09). Three separate facts about
   the repaired pipeline, the first two with the counterexample for the code
   before the repair: the include loader that checks the stack of open files never
   diverges; parse_type_encoding's constant length never crashes; a schema
   satisfying [rules_ok] takes no Crash branch of the generation-time lookups
   ([rules_no_crash]). The statements about a whole [run] follow from these
   and from [validate] being total, through the equation [run_eq]. *)
From Coq Require Import ZArith List Bool Lia.
From Sbepp Require Import Bytes Rules Validate Pipeline ValidateProofs.
Import ListNotations.
Local Open Scope Z_scope.
#[local] Arguments mem_str : simpl never.
#[local] Arguments load : simpl never.

Lemma find_file_In fs p incs : find_file fs p = Some incs -> In p (map fst fs).
Proof.
  induction fs as [|[q l] fs IH]; simpl; [discriminate|].
  destruct (str_eqb_spec q p); auto.
Qed.

(* the loop over the includes of [path], shared by [load] and [load_main] *)
Definition load_incs (fixed : bool) (fs : file_map) (fuel' : nat) (stack : list str) (path : str) :=
  fix go (incs : list str) : load_result :=
    match incs with
    | [] => Loaded
    | href :: r =>
      if (fixed && mem_str href (path :: stack))%bool then LoadErr
      else match load fixed fs fuel' (path :: stack) href with
           | Loaded => go r
           | other => other
           end
    end.

Lemma load_S fixed fs fuel stack path :
  load fixed fs (S fuel) stack path =
  match find_file fs path with
  | None => LoadErr
  | Some incs => load_incs fixed fs fuel stack path incs
  end.
Proof. reflexivity. Qed.

Lemma load_main_eq fixed fs main incs :
  load_main fixed fs main incs =
  match find_file fs main with
  | None => LoadErr
  | Some _ => load_incs fixed fs (S (length fs)) [] main incs
  end.
Proof. reflexivity. Qed.

Lemma load_incs_no_diverge fs fuel stack path incs :
  (forall href, ~ In href (path :: stack) -> load true fs fuel (path :: stack) href <> LoadDiverge) ->
  load_incs true fs fuel stack path incs <> LoadDiverge.
Proof.
  intros H. induction incs as [|href r IH]; simpl; [discriminate|].
  destruct (mem_str href (path :: stack)) eqn:EM; [discriminate|].
  apply mem_str_false, H in EM. destruct (load true fs fuel (path :: stack) href); auto; discriminate.
Qed.

(* the stack holds distinct existing files, so it is no longer than [fs] *)
Lemma load_no_diverge fs : forall fuel stack path,
  NoDup stack -> incl stack (map fst fs) -> ~ In path stack ->
  (length fs + 1 <= fuel + length stack)%nat ->
  load true fs fuel stack path <> LoadDiverge.
Proof.
  induction fuel as [|fuel IH]; intros stack path ND Hin Hp Hf.
  - exfalso. pose proof (NoDup_incl_length ND Hin) as L. rewrite map_length in L. lia.
  - rewrite load_S. destruct (find_file fs path) as [incs|] eqn:EF; [|discriminate].
    apply find_file_In in EF. apply load_incs_no_diverge. intros href Hh.
    apply IH; [constructor; auto | intros x [<-|Hx]; auto | exact Hh | simpl; lia].
Qed.

Theorem include_terminates fs main main_includes :
  load_main true fs main main_includes <> LoadDiverge.
Proof.
  rewrite load_main_eq. destruct (find_file fs main) as [incs|] eqn:EF; [|discriminate].
  apply find_file_In in EF. apply load_incs_no_diverge. intros href Hh.
  apply load_no_diverge; [repeat constructor; intros [] | intros x [<-|[]]; exact EF | exact Hh | simpl; lia].
Qed.

(* the code before the repair: files whose first include leads back into
   their own set are never loaded, whatever the fuel *)
Lemma legacy_cycle fs (C : str -> Prop) :
  (forall p, C p -> exists q r, find_file fs p = Some (q :: r) /\ C q) ->
  forall fuel stack p, C p -> load false fs fuel stack p = LoadDiverge.
Proof.
  intros H. induction fuel as [|fuel IH]; intros stack p Hp; [reflexivity|].
  destruct (H p Hp) as [q [r [E Hq]]]. rewrite load_S, E. simpl. rewrite (IH _ q Hq). reflexivity.
Qed.

Lemma legacy_self_include a : forall fuel stack, load false [(a, [a])] fuel stack a = LoadDiverge.
Proof.
  intros fuel stack. apply (legacy_cycle _ (eq a)); [|reflexivity].
  intros p <-. exists a, []. simpl. rewrite str_eqb_refl. auto.
Qed.

Theorem legacy_include_diverges main a :
  load_main false [(main, []); (a, [a])] main [a] = LoadDiverge \/ main = a.
Proof.
  destruct (list_eq_dec Z.eq_dec main a) as [->|N]; [right; reflexivity | left].
  rewrite load_main_eq. simpl. rewrite str_eqb_refl. simpl.
  rewrite (legacy_cycle _ (eq a)); [reflexivity | | reflexivity].
  intros p <-. exists a, []. simpl. rewrite (proj2 (str_eqb_neq main a) N), str_eqb_refl. auto.
Qed.

Theorem const_length_total is_char length_attr content :
  exists z, const_type_length true is_char length_attr content = VOk z.
Proof.
  unfold const_type_length. destruct length_attr; [eauto|]. destruct is_char; [|eauto].
  destruct content; eauto.
Qed.

Example const_length_legacy_refuted :
  const_type_length false true None None = VCrash EmptyOptional.
Proof. reflexivity. Qed.

(* every loop of the generators: all items fine, the loop fine *)
Lemma all_ok {A} (f : A -> voutcome unit) (go : list A -> voutcome unit) :
  go [] = VOk tt -> (forall x r, go (x :: r) = (f x ;;; go r)) ->
  forall l, (forall x, In x l -> f x = VOk tt) -> go l = VOk tt.
Proof.
  intros H0 HS. induction l as [|x r IH]; intros H; [exact H0|].
  rewrite HS, (H x (or_introl eq_refl)). apply IH. intros y Hy. apply H. right. exact Hy.
Qed.

Lemma g_value_ref_ok env r ev : resolve_value_ref env r = Some ev -> g_value_ref env r = VOk tt.
Proof.
  unfold resolve_value_ref, g_value_ref, g_encoding.
  destruct (split_dot r) as [[en vn]|]; [|discriminate].
  destruct (is_empty en || is_empty vn)%bool; [discriminate|].
  destruct (get_encoding env en) as [[t|e|s|n ty o|n o els]|]; try discriminate. reflexivity.
Qed.

Lemma value_ref_ok_g env r p : value_ref_ok env r p = true -> g_value_ref env r = VOk tt.
Proof.
  unfold value_ref_ok. destruct (resolve_value_ref env r) as [ev|] eqn:E; [|discriminate].
  intros _. exact (g_value_ref_ok _ _ _ E).
Qed.

Lemma value_fits_len v p : value_fits v p = true -> (0 <? v_len v) = true.
Proof.
  unfold value_fits. destruct (Z.leb_spec (v_len v) 0); [discriminate|]. intros _. apply Z.ltb_lt. assumption.
Qed.

Lemma g_literal_ok v p : value_fits v p = true -> g_literal v p = VOk tt.
Proof.
  intros H. unfold g_literal, ok_or. rewrite (value_fits_len _ _ H). simpl.
  destruct p; auto; rewrite H; reflexivity.
Qed.

Lemma g_opt_literal_ok o p : opt_fits o p = true -> g_opt_literal o p = VOk tt.
Proof. destruct o; simpl; auto. apply g_literal_ok. Qed.

Lemma g_const_value_ok env t :
  t_presence t = PConstant -> type_sem env t = true -> g_const_value env t = VOk tt.
Proof.
  unfold type_sem, g_const_value. intros HP. rewrite HP.
  destruct (prim_of_name (t_prim t)) as [p|]; [|discriminate].
  destruct (t_vref t) as [r|], (t_const t) as [v|]; try discriminate.
  - intros H. apply andb_true_iff in H. destruct H as [H _]. eapply value_ref_ok_g; eauto.
  - destruct p; auto; intros H; apply andb_true_iff in H; destruct H as [H _]; apply g_literal_ok; auto.
Qed.

Lemma g_type_ok env t : type_sem env t = true -> g_type env t = VOk tt.
Proof.
  intros H. unfold g_type. pose proof H as H0. unfold type_sem in H.
  destruct (prim_of_name (t_prim t)) as [p|]; [|discriminate].
  destruct (t_presence t) eqn:EP; [| |apply g_const_value_ok; auto];
    (destruct (t_length t =? 1); auto); apply andb_prop in H as [[H1 H2]%andb_prop H3];
    rewrite (g_opt_literal_ok _ _ H1), (g_opt_literal_ok _ _ H2); [reflexivity|].
  apply g_opt_literal_ok, H3.
Qed.

Lemma g_enum_ok env e : enum_sem env e = true -> g_enum env e = VOk tt.
Proof.
  unfold enum_sem, g_enum. destruct (encoding_prim env (e_type e)) as [p|]; [|discriminate].
  intros H. apply andb_true_iff in H. destruct H as [_ H]. rewrite forallb_forall in H.
  destruct p; auto;
    (eapply (all_ok (fun nv => g_literal (snd nv) _)); [reflexivity | intros [n v] r; reflexivity|]);
    intros nv Hn; apply g_literal_ok, (H nv Hn).
Qed.

Section Gen.
  Variable env : list element_def.
  Hypothesis env_rules : forall m, In m (all_elements env) -> element_rule env m = true.

  Lemma env_sem m : In m (all_elements env) -> sem_ok env m = true.
  Proof. intros H. apply element_rule_parts, env_rules, H. Qed.

  Lemma public_sem ty e : get_encoding env ty = Some e -> sem_ok env e = true.
  Proof. intros H. apply env_sem, all_elements_self, (get_encoding_In _ _ _ H). Qed.

  Lemma const_type_ok ty t :
    get_encoding env ty = Some (EType t) -> presence_eqb (t_presence t) PConstant = true ->
    g_const_value env t = VOk tt.
  Proof.
    intros EG EP. apply g_const_value_ok; [destruct (t_presence t); try discriminate; reflexivity|].
    exact (public_sem _ _ EG).
  Qed.

  Lemma g_element_ok e : (forall m, In m (flatten e) -> In m (all_elements env)) -> g_element env e = VOk tt.
  Proof.
    induction e as [t|en|st|n ty o|n o els IHe] using element_ind'; intros Hall;
      pose proof (env_sem _ (Hall _ (flatten_self _))) as H; simpl in H.
    - apply g_type_ok, H.
    - apply g_enum_ok, H.
    - simpl. unfold set_sem in H. destruct (encoding_prim env (s_type st)); [reflexivity | discriminate].
    - simpl. unfold g_encoding. destruct (get_encoding env ty) as [tgt|] eqn:EG; [|discriminate]. simpl.
      destruct tgt as [t| | | |]; auto.
      destruct (presence_eqb (t_presence t) PConstant) eqn:EP; auto. eapply const_type_ok; eauto.
    - apply (all_ok (g_element env)); [reflexivity | reflexivity|]. rewrite Forall_forall in IHe.
      intros x Hx. apply IHe; auto. intros m Hm. apply Hall. rewrite flatten_composite. right.
      apply in_flatten_list. eauto.
  Qed.

  Lemma g_header_element_ok els name t :
    header_member_type env els name = Some t -> g_header_element env els name = VOk tt.
  Proof.
    unfold header_member_type, g_header_element, g_encoding.
    destruct (find_element els name) as [[t'|e|s|n ty o|n o l]|]; try discriminate; auto.
    destruct (get_encoding env ty) as [[t'|e|s|n' ty' o'|n' o' l]|]; try discriminate; auto.
  Qed.

  Lemma scalar_member_g els name : scalar_member_ok env els name = true -> g_header_element env els name = VOk tt.
  Proof.
    unfold scalar_member_ok. destruct (header_member_type env els name) as [t|] eqn:E; [|discriminate].
    intros _. eapply g_header_element_ok; eauto.
  Qed.

  Lemma g_const_field_ok f :
    field_is_constant env f = true -> constant_field_ok env f = true -> g_const_field env f = VOk tt.
  Proof.
    unfold field_is_constant, constant_field_ok, g_const_field, g_encoding.
    destruct (prim_of_name (f_type f)) as [p|].
    - intros _. destruct (f_vref f) as [r|]; [|discriminate]. apply value_ref_ok_g.
    - destruct (get_encoding env (f_type f)) as [[t|e|s|n ty o|n o l]|] eqn:EG; try discriminate; simpl.
      + intros HP _. eapply const_type_ok; eauto.
      + intros _. destruct (f_vref f) as [r|]; [|discriminate].
        destruct (resolve_value_ref env r) as [ev|] eqn:ER; [|discriminate]. intros _.
        exact (g_value_ref_ok _ _ _ ER).
  Qed.

  Lemma g_field_ok f : field_sem env f = true -> g_field env f = VOk tt.
  Proof.
    unfold field_sem, g_field. intros H. apply andb_true_iff in H. destruct H as [H1 H2].
    assert (HC : (if field_is_constant env f then g_const_field env f else VOk tt) = VOk tt).
    { destruct (field_is_constant env f) eqn:FC; auto. apply g_const_field_ok; auto. }
    unfold field_size in H1. destruct (prim_of_name (f_type f)); auto.
    unfold g_encoding. destruct (get_encoding env (f_type f)); [simpl; auto | discriminate].
  Qed.

  Lemma g_data_ok d : data_header_ok env (d_type d) = true -> g_data env d = VOk tt.
  Proof.
    unfold data_header_ok, g_data, g_composite, g_encoding.
    destruct (get_encoding env (d_type d)) as [[t|e|s|n ty o|n o els]|]; try discriminate. simpl.
    intros H. apply andb_true_iff in H. destruct H as [H1 H2].
    rewrite (scalar_member_g _ _ H1). simpl.
    destruct (header_member_type env els k_varData) as [t|] eqn:E; [|discriminate].
    eapply g_header_element_ok; eauto.
  Qed.

  Lemma level_header_g dim req :
    level_header_ok env dim req = true ->
    exists els, g_composite env dim = VOk els /\ forall n, In n req -> g_header_element env els n = VOk tt.
  Proof.
    unfold level_header_ok, g_composite, g_encoding.
    destruct (get_encoding env dim) as [[t|e|s|n ty o|n o els]|]; try discriminate. simpl.
    intros H. exists els. split; auto. intros x Hx. rewrite forallb_forall in H. apply scalar_member_g; auto.
  Qed.

  Lemma g_level_ok fs gnames ds bl :
    level_rule env fs gnames ds bl = true -> g_fields env fs = VOk tt /\ g_datas env ds = VOk tt.
  Proof.
    intros H. destruct (level_rule_parts _ _ _ _ _ H) as [_ [_ [HF [_ HD]]]].
    rewrite forallb_forall in HF, HD.
    split; [apply (all_ok (g_field env)) | apply (all_ok (g_data env))]; try reflexivity.
    - intros f Hf. apply g_field_ok, HF, Hf.
    - intros d Hd. apply g_data_ok, HD, Hd.
  Qed.

  Lemma g_group_ok g : group_rule env g = true -> g_group env g = VOk tt.
  Proof.
    induction g as [n dim bl fs gs ds IH] using group_ind'. rewrite group_rule_eq.
    intros [[[_ HH]%andb_prop HL]%andb_prop HG]%andb_prop. simpl.
    destruct (level_header_g dim group_header_members HH) as [els [E1 E2]]. rewrite E1. simpl.
    rewrite (E2 k_blockLength), (E2 k_numInGroup) by (simpl; auto). simpl.
    destruct (g_level_ok _ _ _ _ HL) as [-> HD]. simpl.
    rewrite (all_ok (g_group env)); [exact HD | reflexivity | reflexivity|].
    rewrite Forall_forall in IH. rewrite forallb_forall in HG. auto.
  Qed.

  Lemma g_messages_ok ms : forallb (message_rule env) ms = true -> g_messages env ms = VOk tt.
  Proof.
    induction ms as [|m r IH]; simpl; auto. rewrite andb_true_iff. intros [A B].
    unfold message_rule in A. apply andb_prop in A. destruct A as [[_ HL]%andb_prop HG].
    destruct (g_level_ok _ _ _ _ HL) as [-> ->]. simpl.
    rewrite (all_ok (g_group env)); [auto | reflexivity | reflexivity|].
    rewrite forallb_forall in HG. intros g Hg. apply g_group_ok, HG, Hg.
  Qed.
End Gen.

Theorem rules_no_crash s : rules_ok s = true -> gen_lookups s = VOk tt.
Proof.
  intros R. destruct (rules_ok_parts s R) as [HE [HH HM]].
  unfold gen_lookups. cbv zeta.
  destruct (level_header_g _ _ _ HH) as [els [E1 E2]]. rewrite E1. simpl.
  rewrite (E2 k_blockLength) by (simpl; auto). simpl.
  rewrite (all_ok (g_element (sc_types s))); try reflexivity.
  - apply g_messages_ok; [exact HE | apply forallb_forall, HM].
  - intros e He. apply g_element_ok; [exact HE|]. intros m Hm. apply in_all_elements. eauto.
Qed.

Theorem validated_no_crash s st : validate s = VOk st -> gen_lookups s = VOk tt.
Proof. intros H. apply rules_no_crash. apply validate_iff_rules. eauto. Qed.

(* the repaired run, step by step; [validate] can only accept or reject *)
Lemma run_eq i :
  run true i =
  if negb (in_argv_ok i) then ExitErr else
  match load_main true (in_files i) (in_main i) (in_main_includes i) with
  | Loaded =>
    if negb (in_xml_ok i) then ExitErr else
    match validate (in_schema i) with
    | VOk _ => if in_output_ok i then Exit0 else ExitErr
    | _ => ExitErr
    end
  | _ => ExitErr
  end.
Proof.
  unfold run. destruct (negb (in_argv_ok i)); auto.
  pose proof (include_terminates (in_files i) (in_main i) (in_main_includes i)) as HI.
  destruct (load_main true (in_files i) (in_main i) (in_main_includes i)); auto; [|contradiction].
  destruct (negb (in_xml_ok i)); auto. fold (validate (in_schema i)).
  destruct (validate_total (in_schema i)) as [[st H]|[c H]]; rewrite H; auto.
  rewrite (validated_no_crash _ _ H). reflexivity.
Qed.

Theorem run_total i : run true i = Exit0 \/ run true i = ExitErr.
Proof.
  rewrite run_eq. destruct (negb (in_argv_ok i)); auto.
  destruct (load_main true _ _ _); auto. destruct (negb (in_xml_ok i)); auto.
  destruct (validate (in_schema i)); auto. destruct (in_output_ok i); auto.
Qed.

(* a rejected schema never reaches the generators *)
Theorem rejected_no_generation i c :
  validate (in_schema i) = VErr c -> run true i = ExitErr.
Proof.
  intros H. rewrite run_eq, H. destruct (negb (in_argv_ok i)); auto.
  destruct (load_main true _ _ _); auto. destruct (negb (in_xml_ok i)); auto.
Qed.
