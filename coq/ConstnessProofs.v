(* ConstnessProofs.v — lemmas about the capability model Constness.v (C11). *)
From Coq Require Import Bool List Relations.
From Sbepp Require Import ListFacts Constness.
Import ListNotations.
Import C11.

(* below the head constructor of an [op] the definitions of Constness.v look
   only at arguments of these types *)
Ltac destruct_op o :=
  destruct o;
  repeat match goal with
  | x : mkind |- _ => destruct x
  | x : ckind |- _ => destruct x
  | x : cform |- _ => destruct x
  | x : group_reader |- _ => destruct x
  | x : arr_reader |- _ => destruct x
  | x : bool |- _ => destruct x
  end.

Lemma ptr_convertible_spec f t :
  ptr_convertible f t = true <-> (f = true -> t = true).
Proof. destruct f, t; cbn; intuition congruence. Qed.

Lemma writable_rejects_const c : eval_req ReqWritable ByteConst c = false.
Proof. reflexivity. Qed.

Lemma cursor_writeable_rejects_const_byte c : eval_req ReqCursorWriteable ByteConst c = false.
Proof. destruct c; reflexivity. Qed.

Lemma cursor_writeable_rejects_const_cursor b : eval_req ReqCursorWriteable b CursorConst = false.
Proof. destruct b; reflexivity. Qed.

Lemma cursor_compatible_spec b c :
  eval_req ReqCompatible b c = true <-> const_le b (byte_of_cursor c) = true.
Proof. destruct b, c; cbn; intuition congruence. Qed.

(* the declaration-level guard of a mutator is one of the two writable
   guards, except when the caller overrides the guard's template argument *)
Lemma mutator_guard o :
  is_mutator o = true ->
  (exists k, o = CapSetExplicitArgs k) \/
  (uses_cursor o = false /\ guard_of o = ReqWritable) \/
  (uses_cursor o = true /\ guard_of o = ReqCursorWriteable).
Proof.
  destruct o; cbn; intros H; try discriminate H; eauto.
Qed.

(* and behind the guard, the body of every mutator needs a non-const byte or
   cursor too: bypassing the declaration does not help *)
Lemma mutator_body_rejects_const o :
  is_mutator o = true ->
  (forall c, eval_req (body_of o) ByteConst c = false) \/
  (uses_cursor o = true /\ forall b, eval_req (body_of o) b CursorConst = false).
Proof.
  destruct_op o; cbn; intros H; try discriminate H;
    try (left; intros []; reflexivity);
    try (right; split; [reflexivity | intros []; reflexivity]).
Qed.

(* overload resolution / is_invocable already says no (nothing to instantiate),
   unless the caller explicitly supplied the guard's template argument *)
Lemma mutators_sfinae_rejected o :
  is_mutator o = true -> (forall k, o <> CapSetExplicitArgs k) ->
  (forall c, viable ByteConst c o = false) /\
  (uses_cursor o = true -> forall b, viable b CursorConst o = false).
Proof.
  intros Hm Hne.
  destruct (mutator_guard o Hm) as [[k ->] | [[Hu Hg] | [Hu Hg]]].
  - exfalso. exact (Hne k eq_refl).
  - unfold viable. rewrite Hg, Hu. split; [intros c; apply writable_rejects_const | discriminate].
  - unfold viable. rewrite Hg. split; intros.
    + apply cursor_writeable_rejects_const_byte.
    + apply cursor_writeable_rejects_const_cursor.
Qed.

(* the overridden guard is the only mutator the declaration lets through (its
   body is what rejects a const receiver: [mutator_body_rejects_const]) *)
Lemma unguarded_mutator_is_explicit o :
  is_mutator o = true -> req_is_true (guard_of o) = true -> exists k, o = CapSetExplicitArgs k.
Proof.
  intros Hm Hg.
  destruct (mutator_guard o Hm) as [H | [[_ H] | [_ H]]]; [exact H | |]; rewrite H in Hg; discriminate.
Qed.

(* the call does not compile: the declaration is rejected, or, where the caller
   overrode the guard, the body is *)
Lemma mutators_rejected o :
  is_mutator o = true ->
  (forall c, can_call ByteConst c o = false) /\
  (uses_cursor o = true -> forall b, can_call b CursorConst o = false).
Proof.
  intros Hm. unfold can_call.
  destruct (mutator_guard o Hm) as [[k ->] | Hg].
  - split; [reflexivity | discriminate].
  - assert (Hne : forall k, o <> CapSetExplicitArgs k) by (destruct Hg as [[_ H] | [_ H]]; intros k ->; discriminate H).
    destruct (mutators_sfinae_rejected o Hm Hne) as [Hb Hc]. unfold viable in Hb, Hc.
    split; [intros c; rewrite Hb | intros Hu b; rewrite Hc by exact Hu]; reflexivity.
Qed.

(* with a mutable byte type and a mutable cursor every mutator is available
   (except the cursor setter through skip(), which does not exist) *)
Lemma mutators_available_on_mut o :
  is_mutator o = true -> (forall k a, o <> CapCurSet k a CurSkip) ->
  can_call ByteMut CursorMut o = true.
Proof.
  intros Hm Hne. destruct_op o; try discriminate Hm; try reflexivity;
    exfalso; eapply Hne; reflexivity.
Qed.

(* const views stay fully readable with a const cursor *)
Lemma readers_available_on_const o :
  is_mutator o = false -> can_call ByteConst CursorConst o = true.
Proof. destruct_op o; cbn; intros H; try discriminate H; reflexivity. Qed.

(* a cursor that is less const than the view is rejected even for reading *)
Lemma mut_cursor_on_const_view_rejected o :
  uses_cursor o = true -> can_call ByteConst CursorMut o = false.
Proof. destruct_op o; cbn; intros H; try discriminate H; reflexivity. Qed.

Lemma const_le_refl a : const_le a a = true.
Proof. destruct a; reflexivity. Qed.

Lemma result_byte_cases o b c r :
  result_byte o b c = Some r ->
  r = b \/ r = ByteConst \/ (r = byte_of_cursor c /\ guard_of o = ReqCompatible).
Proof. destruct_op o; cbn; intros [= <-]; auto. Qed.

Lemma result_at_least_as_const o b c r :
  can_call b c o = true -> result_byte o b c = Some r -> const_le b r = true.
Proof.
  intros Hc Hr. destruct (result_byte_cases o b c r Hr) as [-> | [-> | [-> Hg]]].
  - apply const_le_refl.
  - destruct b; reflexivity.
  - apply cursor_compatible_spec. unfold can_call in Hc. rewrite Hg in Hc.
    apply andb_true_iff in Hc. apply Hc.
Qed.

(* a client that holds only const views and const cursors can compile no
   mutator and only ever obtains const views / cursors / pointers *)
Lemma const_client_safe o c :
  (uses_cursor o = true -> c = CursorConst) ->
  can_call ByteConst c o = true ->
  is_mutator o = false /\ forall r, result_byte o ByteConst c = Some r -> r = ByteConst.
Proof.
  intros Hu Hc. split.
  - destruct (is_mutator o) eqn:Hm; [|reflexivity].
    destruct (mutators_rejected o Hm) as [H _]. rewrite H in Hc. discriminate.
  - intros r Hr. pose proof (result_at_least_as_const o ByteConst c r Hc Hr) as Hle.
    destruct r; [discriminate Hle | reflexivity].
Qed.

Lemma view_conv_iff v f a b : view_conv v f a b = true <-> const_le a b = true.
Proof. reflexivity. Qed.

Lemma cursor_conv_iff f a b :
  cursor_conv f a b = true <-> const_le (byte_of_cursor a) (byte_of_cursor b) = true.
Proof. destruct a, b; cbn; intuition. Qed.

Lemma const_le_trans a b c : const_le a b = true -> const_le b c = true -> const_le a c = true.
Proof. destruct a, b, c; cbn; congruence. Qed.

Lemma const_le_antisym a b : const_le a b = true -> const_le b a = true -> a = b.
Proof. destruct a, b; cbn; congruence. Qed.

Lemma const_le_const b : const_le ByteConst b = true -> b = ByteConst.
Proof. destruct b; cbn; congruence. Qed.

(* one step: any implicit / explicit conversion or assignment between two
   instances of any view template, or of the cursor template *)
Definition conv_step (a b : byte_const) : Prop :=
  (exists v f, view_conv v f a b = true) \/
  (exists f, cursor_conv f (cursor_of_byte a) (cursor_of_byte b) = true).

Lemma conv_step_le a b : conv_step a b -> const_le a b = true.
Proof.
  intros [[v [f H]] | [f H]]; [exact H|]. destruct a, b; cbn in *; congruence.
Qed.

Lemma conv_path_le a b : clos_refl_trans _ conv_step a b -> const_le a b = true.
Proof.
  induction 1 as [a b H | a | a b c _ IH1 _ IH2].
  - apply conv_step_le; exact H.
  - apply const_le_refl.
  - eapply const_le_trans; eassumption.
Qed.

Lemma conversions_monotone :
  (* a conversion exists exactly towards an at-least-as-const byte type *)
  (forall v f a b, view_conv v f a b = true <-> const_le a b = true) /\
  (forall f a b, cursor_conv f a b = true <-> const_le (byte_of_cursor a) (byte_of_cursor b) = true) /\
  (* composition is transitive *)
  (forall v f a b c, view_conv v f a b = true -> view_conv v f b c = true -> view_conv v f a c = true) /\
  (forall f a b c, cursor_conv f a b = true -> cursor_conv f b c = true -> cursor_conv f a c = true) /\
  (* the two directions that matter *)
  (forall v f, view_conv v f ByteMut ByteConst = true /\ view_conv v f ByteConst ByteMut = false) /\
  (forall f, cursor_conv f CursorMut CursorConst = true /\ cursor_conv f CursorConst CursorMut = false) /\
  (* no chain of conversions leads from const to mutable *)
  (forall b, clos_refl_trans _ conv_step ByteConst b -> b = ByteConst).
Proof.
  repeat split.
  - intros H; exact H.
  - intros H; exact H.
  - apply cursor_conv_iff.
  - apply cursor_conv_iff.
  - intros v f a b c. unfold view_conv. apply (const_le_trans a b c).
  - intros f a b c. destruct a, b, c; cbn; congruence.
  - intros b H. apply const_le_const. apply conv_path_le. exact H.
Qed.

Lemma all_vkind_complete k : In k all_vkind. Proof. destruct k; cbn; auto 20. Qed.
Lemma all_rkind_complete k : In k all_rkind. Proof. destruct k; cbn; auto 20. Qed.
Lemma all_access_complete a : In a all_access. Proof. destruct a; cbn; auto 20. Qed.
Lemma all_saccess_complete a : In a all_saccess. Proof. destruct a; cbn; auto 20. Qed.
Lemma all_cform_complete w : In w all_cform. Proof. destruct w; cbn; auto 20. Qed.
Lemma all_group_reader_complete r : In r all_group_reader. Proof. destruct r; cbn; auto 20. Qed.
Lemma all_group_cursor_op_complete g : In g all_group_cursor_op. Proof. destruct g; cbn; auto 20. Qed.
Lemma all_arr_reader_complete r : In r all_arr_reader. Proof. destruct r; cbn; auto 20. Qed.
Lemma all_elem_way_complete w : In w all_elem_way. Proof. destruct w; cbn; auto 20. Qed.
Lemma all_sarr_mut_complete m : In m all_sarr_mut. Proof. destruct m; cbn; auto 20. Qed.
Lemma all_darr_mut_complete m : In m all_darr_mut. Proof. destruct m; cbn; auto 20. Qed.
Lemma all_arr_class_complete a : In a all_arr_class. Proof. destruct a; cbn; auto 20. Qed.

Create HintDb enum.
#[local] Hint Resolve all_vkind_complete all_rkind_complete all_access_complete all_saccess_complete
  all_cform_complete all_group_reader_complete all_group_cursor_op_complete all_arr_reader_complete
  all_elem_way_complete all_sarr_mut_complete all_darr_mut_complete all_arr_class_complete : enum.

(* membership follows the structure of the list (++ / map / flat_map / ::) and
   ends at the completeness of an index type's own enumeration *)
Ltac solve_in :=
  lazymatch goal with
  | |- In _ (_ ++ _) => apply in_or_app; first [ left; solve [solve_in] | right; solve [solve_in] ]
  | |- In _ (map _ _) => apply in_map; solve_in
  | |- In _ (flat_map _ _) =>
      eapply in_flat_map_intro; cycle 1; [ cbv beta; solve [solve_in] | solve [solve_in] ]
  | |- In ?x (?x :: _) => apply in_eq
  | |- In _ (_ :: _) => apply in_cons; solve_in
  | |- _ => solve [auto with enum]
  end.

Lemma all_mkind_complete m : In m all_mkind.
Proof. unfold all_mkind. destruct m; solve_in. Qed.

Lemma all_ckind_complete m : In m all_ckind.
Proof. unfold all_ckind. destruct m; solve_in. Qed.

#[local] Hint Resolve all_mkind_complete all_ckind_complete : enum.

Lemma all_ops_complete o : In o all_ops.
Proof. unfold all_ops. destruct o; try destruct group; solve_in. Qed.

Lemma all_vclass_complete v : In v all_vclass.
Proof. destruct v; cbv; tauto. Qed.

(* [Legacy]: the code before the repair *)
(* the two guards the repair added repeat what the bodies require *)
Lemma legacy_same_can_call o b c : Legacy.can_call b c o = can_call b c o.
Proof. destruct o; try reflexivity; destruct b; reflexivity. Qed.

(* the call was already a compile error ... *)
Lemma legacy_mutators_rejected o :
  is_mutator o = true ->
  (forall c, Legacy.can_call ByteConst c o = false) /\
  (uses_cursor o = true -> forall b, Legacy.can_call b CursorConst o = false).
Proof.
  intros Hm. destruct (mutators_rejected o Hm) as [Hb Hc].
  split; intros; rewrite legacy_same_can_call; auto.
Qed.

(* ... but [resize]/[clear] of a const group were offered by overload
   resolution: is_invocable / a requires-expression answered "yes" and the
   error only surfaced inside the library *)
Example legacy_group_resize_viable_refuted :
  ~ (forall o, is_mutator o = true -> (forall k, o <> CapSetExplicitArgs k) ->
       forall c, Legacy.viable ByteConst c o = false).
Proof.
  intros H. specialize (H CapGroupResize eq_refl (fun k e => ltac:(discriminate e)) CursorMut).
  vm_compute in H. discriminate H.
Qed.

Example legacy_group_clear_viable_refuted :
  Legacy.viable ByteConst CursorMut CapGroupClear = true /\ Legacy.can_call ByteConst CursorMut CapGroupClear = false.
Proof. vm_compute. split; reflexivity. Qed.

(* the repair changes nothing else *)
Lemma legacy_differs_only_on_group_resize_clear o b c :
  o <> CapGroupResize -> o <> CapGroupClear ->
  Legacy.viable b c o = viable b c o /\ Legacy.can_call b c o = can_call b c o.
Proof.
  intros H1 H2. destruct o; try (split; reflexivity); congruence.
Qed.

Example mutators_rejected_nonvacuous :
  is_mutator (CapSetV ValScalar SetAccDirect) = true /\
  can_call ByteMut CursorMut (CapSetV ValScalar SetAccDirect) = true /\
  can_call ByteConst CursorMut (CapSetV ValScalar SetAccDirect) = false /\
  is_mutator (CapCurSet ValEnum AccByTag CurInit) = true /\ uses_cursor (CapCurSet ValEnum AccByTag CurInit) = true /\
  can_call ByteMut CursorMut (CapCurSet ValEnum AccByTag CurInit) = true /\
  can_call ByteMut CursorConst (CapCurSet ValEnum AccByTag CurInit) = false /\
  can_call ByteMut CursorConst (CapCurGet (CMemValue ValEnum) AccByTag CurInit) = true.
Proof. vm_compute. repeat split. Qed.

Example mutators_sfinae_rejected_nonvacuous :
  is_mutator CapGroupResize = true /\ (forall k, CapGroupResize <> CapSetExplicitArgs k) /\
  viable ByteMut CursorMut CapGroupResize = true /\ viable ByteConst CursorMut CapGroupResize = false /\
  viable ByteConst CursorMut (CapSetExplicitArgs ValSet) = true /\
  can_call ByteConst CursorMut (CapSetExplicitArgs ValSet) = false.
Proof. vm_compute. repeat split; discriminate. Qed.

Example conversions_monotone_nonvacuous :
  view_conv ViewMessage ConvImplicit ByteMut ByteConst = true /\ view_conv ViewEntry ConvAssign ByteConst ByteMut = false /\
  cursor_conv ConvConstruct CursorMut CursorConst = true /\ cursor_conv ConvImplicit CursorConst CursorMut = false /\
  clos_refl_trans _ conv_step ByteMut ByteConst.
Proof.
  vm_compute. repeat split. apply rt_step. left. exists ViewMessage, ConvImplicit. reflexivity.
Qed.

Example const_client_safe_nonvacuous :
  can_call ByteConst CursorConst (CapCurGet (CMemRef RefGroup) AccDirect CurPlain) = true /\
  result_byte (CapCurGet (CMemRef RefGroup) AccDirect CurPlain) ByteConst CursorConst = Some ByteConst /\
  can_call ByteMut CursorConst (CapCurGet (CMemRef RefGroup) AccDirect CurPlain) = true /\
  result_byte (CapCurGet (CMemRef RefGroup) AccDirect CurPlain) ByteMut CursorConst = Some ByteConst /\
  result_byte (CapGet (MemRef RefData) AccByTag) ByteMut CursorMut = Some ByteMut.
Proof. vm_compute. repeat split. Qed.

Example all_ops_count : length all_ops = 228.
Proof. vm_compute. reflexivity. Qed.
