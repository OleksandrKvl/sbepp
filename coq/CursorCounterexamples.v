(* CursorCounterexamples.v — stmt_trav_message_enc (CursorSpec.v) is false as
   written.  A concrete refutation (an artefact of the model's iteration bound);
   the corrected statement stmt_trav_message_enc' is proved in CursorProofs.v. *)
From Coq Require Import ZArith List Bool Lia.
From Sbepp Require Import CInt Bytes Msg Layout Wire MsgSpec Cursor CursorSpec.
Import ListNotations.
Local Open Scope Z_scope.

(* a flat group whose entries have wire blockLength 0 and whose numInGroup
   exceeds default_fuel (buffer length + 1): the entry loop of the model runs
   out of fuel and reports COob *)
Module Ex2.
  Definition d : dim :=
    {| d_size := 4; d_bl_off := 0; d_bl_t := U16; d_n_off := 2; d_n_t := U16; d_fills := [] |}.
  Definition m : message :=
    {| m_hdr_size := 8; m_bl_off := 0; m_bl_t := U16; m_cbl := 1; m_fills := [];
       m_level := Level [ {| f_off := 0; f_size := 1 |} ]
                        (GCons d 0 (Level [] GNil []) GNil) [] |}.
  Definition cl : clevel :=
    CLevel [ {| ca_rel := 0; ca_abs := 8; ca_size := 1; ca_last := true; ca_view := false |} ]
           (CGCons (CLevel [] CGNil) CGNil).
  Definition hdrbg : list Z := [0;0;0;0;0;0;0;0].
  Fixpoint ents (n : nat) : ventries :=
    match n with O => VENil | S n' => VECons (VLevel [] VGNil []) (ents n') end.
  Definition v : vlevel := VLevel [7] (VGCons [0;0;0;0] (ents 20) VGNil) [].

  Lemma actual :
    trav_message false ([] ++ enc_message false m hdrbg v ++ []) m cl (len (@nil Z)) = COob.
  Proof. vm_compute. reflexivity. Qed.

  Lemma hyps :
    wf_message false m hdrbg v /\ wf_clevel (m_hdr_size m) (m_level m) cl /\
    fields_fit (m_level m) v /\ len ([] ++ enc_message false m hdrbg v ++ []) < 2 ^ 64.
  Proof.
    split; [|split; [|split]].
    - vm_compute. repeat split; try discriminate. left. discriminate.
    - vm_compute. repeat split; discriminate.
    - repeat constructor; vm_compute; discriminate.
    - vm_compute. reflexivity.
  Qed.
End Ex2.

Theorem trav_message_enc_false_2 : ~ stmt_trav_message_enc.
Proof.
  intros H. destruct Ex2.hyps as (H1 & H2 & H3 & H4).
  specialize (H false Ex2.m Ex2.cl Ex2.hdrbg Ex2.v [] [] H1 H2 H3 H4).
  rewrite Ex2.actual in H. discriminate H.
Qed.
Print Assumptions trav_message_enc_false_2.
