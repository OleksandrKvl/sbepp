(* CExprFacts.v — conversions that change nothing.

   clang's AST spells out every integral promotion and usual arithmetic
   conversion, so the same member function instantiated at sixteen type pairs
   gives sixteen terms that differ only in casts of variables: [ECast I32 (EVar
   "index")] where the index type is narrower than int, a bare [EVar "index"]
   where it is not.  A cast to a type that contains the declared type of the
   variable, the literal, or the type the operand node computes in is the
   identity; [uncast] removes exactly those.
   Two terms with the same [uncast] form evaluate alike in every environment
   that respects the declared types, which is how a whole family of
   instantiations is compared with ONE term that has the type as a parameter
   ([effs_eval_same]) and then proved once. *)
From Coq Require Import ZArith Bool String List Lia.
From Sbepp Require Import CInt CIntFacts CExpr.
Import ListNotations.
Local Open Scope Z_scope.

Lemma zb_eqb0 b : (zb b =? 0)%Z = negb b.
Proof. destruct b; reflexivity. Qed.

Lemma ccast_zb t b : ccast t (zb b) = zb b.
Proof. destruct t, b; reflexivity. Qed.

Fixpoint tlookup (ty : list (string * ity)) (x : string) : option ity :=
  match ty with
  | [] => None
  | (y, t) :: r => if String.eqb x y then Some t else tlookup r x
  end.

Definition typed (ty : list (string * ity)) (env : list (string * Z)) : Prop :=
  forall x t v, tlookup ty x = Some t -> lookup env x = Some v -> in_range t v = true.

Lemma typed_nil env : typed [] env.
Proof. intros x t v H. discriminate H. Qed.

Lemma typed_cons x t v ty env :
  in_range t v = true -> typed ty env -> typed ((x, t) :: ty) ((x, v) :: env).
Proof.
  intros Hv H y s w. cbn. destruct (String.eqb y x); [congruence | apply H].
Qed.

Lemma typed_skip x v ty env : tlookup ty x = None -> typed ty env -> typed ty ((x, v) :: env).
Proof.
  intros Hx H y s w Hy. cbn. destruct (String.eqb_spec y x) as [->|_]; [congruence | apply H, Hy].
Qed.

Ltac typed_env :=
  repeat first [apply typed_cons; [assumption|] | apply typed_skip; [reflexivity|]]; apply typed_nil.

(* a type that contains the value of [e]: the declared type of a variable, the
   type a conversion or a binary operator delivers its result in *)
Definition ety (ty : list (string * ity)) (e : cexpr) : option ity :=
  match e with
  | EVar x => tlookup ty x
  | ECast t _ => Some t
  | EBin _ t _ _ => Some (uac t t)
  | _ => None
  end.

Lemma ety_range ty env e t v :
  typed ty env -> ety ty e = Some t -> ceval env e = Some v -> in_range t v = true.
Proof.
  intros H. destruct e; try discriminate; cbn [ety ceval].
  - apply H.
  - intros [= <-]. destruct (ceval env e); [|discriminate]. intros [= <-]. apply wrap_range.
  - intros [= <-]. destruct (ceval env e1); [|discriminate]. destruct (ceval env e2); [|discriminate].
    cbn [obind]. destruct o; cbn [ebin]; try apply cbin_in_range; intros [= <-]; apply wrap_range.
Qed.

(* [ECast t a] where the value of [a] surely is one of [t] already: a literal of
   [t], a node whose own type is contained in [t] *)
Definition uncast1 (ty : list (string * ity)) (t : ity) (a : cexpr) : cexpr :=
  if match a with
     | ELit v => in_range t v
     | _ => match ety ty a with Some s => fits_in s t | None => false end
     end
  then a else ECast t a.

Fixpoint uncast (ty : list (string * ity)) (e : cexpr) : cexpr :=
  match e with
  | EVar _ | ELit _ => e
  | ECast t a => uncast1 ty t (uncast ty a)
  | EToBool a => EToBool (uncast ty a)
  | EBin o t a b => EBin o t (uncast ty a) (uncast ty b)
  | EShl t a n => EShl t (uncast ty a) (uncast ty n)
  | EShr t a n => EShr t (uncast ty a) (uncast ty n)
  | ENot t a => ENot t (uncast ty a)
  | ENeg t a => ENeg t (uncast ty a)
  | ECmp o a b => ECmp o (uncast ty a) (uncast ty b)
  | ECond c a b => ECond (uncast ty c) (uncast ty a) (uncast ty b)
  | EBswap w a => EBswap w (uncast ty a)
  end.

Lemma uncast1_ok ty env t a : typed ty env -> ceval env (uncast1 ty t a) = ceval env (ECast t a).
Proof.
  intros H. unfold uncast1. destruct (match a with ELit _ => _ | _ => _ end) eqn:E; [|reflexivity].
  cbn [ceval]. destruct (ceval env a) as [v|] eqn:Ev; [|reflexivity].
  cbn [obind]. unfold ccast. rewrite wrap_id; [reflexivity|].
  destruct a.
  2: { injection Ev as <-. exact E. }
  all: destruct (ety ty _) as [s|] eqn:Es; [|discriminate E];
    exact (fits_in_range s t v E (ety_range ty env _ s v H Es Ev)).
Qed.

Lemma uncast_ok ty env e : typed ty env -> ceval env (uncast ty e) = ceval env e.
Proof.
  intros H. induction e; cbn [uncast]; rewrite ?uncast1_ok by exact H; cbn [ceval];
    rewrite ?IHe, ?IHe1, ?IHe2, ?IHe3; reflexivity.
Qed.

Definition eff_map (g : cexpr -> cexpr) (f : effect) : effect :=
  match f with
  | Return e => Return (g e)
  | Store t e => Store t (g e)
  | PtrAdd t e => PtrAdd t (g e)
  | PtrSub t e => PtrSub t (g e)
  | Local x e => Local x (g e)
  | Assert e => Assert (g e)
  end.

(* the declared types say nothing of the environment after a store: what
   follows one is left as it is *)
Fixpoint effs_uncast (ty : list (string * ity)) (fs : list effect) : list effect :=
  match fs with
  | [] => []
  | (Store _ _ | Local _ _) as f :: r => eff_map (uncast ty) f :: r
  | f :: r => eff_map (uncast ty) f :: effs_uncast ty r
  end.

Lemma effs_uncast_ok ty env fs : typed ty env -> effs_eval env (effs_uncast ty fs) = effs_eval env fs.
Proof.
  intros H. induction fs as [|[] r IH]; cbn [effs_uncast eff_map effs_eval];
    rewrite ?(uncast_ok ty env) by exact H; rewrite ?IH; reflexivity.
Qed.

Lemma effs_eval_uncast ty env fs gs :
  effs_uncast ty fs = gs -> typed ty env -> effs_eval env fs = effs_eval env gs.
Proof. intros <- H. symmetry. apply effs_uncast_ok, H. Qed.

Lemma effs_eval_same ty env fs gs :
  effs_uncast ty fs = effs_uncast ty gs -> typed ty env -> effs_eval env fs = effs_eval env gs.
Proof. intros E H. rewrite (effs_eval_uncast ty env fs _ E H). apply effs_uncast_ok, H. Qed.
