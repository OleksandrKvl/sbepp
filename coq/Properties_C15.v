(* Properties_C15.v — C15: set choices are independent bits for every
   encoding width.  The proofs are in BitsetProofs.v and, for the expression
   trees taken from the source, SrcExprsProofs.v; only
   [C15_source_is_the_model] is put together here, from three lemmas of the
   latter. *)
From Coq Require Import ZArith List.
From Sbepp Require Import CInt Bitset BitsetProofs.
Local Open Scope Z_scope.

(* a choice setter, bitset_base<T>::operator()(set_bit_tag, n, b), followed by
   any choice getter, operator()(get_bit_tag, m); [Some]: no undefined shift *)
Theorem C15_bit_independent : forall T bits n b,
  is_set_type T = true -> 0 <= n < CInt.bits T -> in_range T bits = true ->
  exists bits', set_bit T bits n b = Some bits' /\ in_range T bits' = true /\
    forall m, 0 <= m < CInt.bits T ->
      get_bit T bits' m = Some (if m =? n then b else Z.testbit bits m).
Proof. exact bit_independent. Qed.
Print Assumptions C15_bit_independent.

Theorem C15_get_bit_is_testbit : forall T bits n,
  is_set_type T = true -> 0 <= n < CInt.bits T -> in_range T bits = true ->
  get_bit T bits n = Some (Z.testbit bits n).
Proof. exact get_bit_is_testbit. Qed.
Print Assumptions C15_get_bit_is_testbit.

Theorem C15_set_bit_is_setclear : forall T bits n b,
  is_set_type T = true -> 0 <= n < CInt.bits T -> in_range T bits = true ->
  set_bit T bits n b = Some (spec_set bits n b) /\
  in_range T (spec_set bits n b) = true.
Proof. exact set_bit_correct. Qed.
Print Assumptions C15_set_bit_is_setclear.

(* raw value access and equality are consistent with the choices *)
Theorem C15_raw_value_determined_by_bits : forall T x y,
  is_set_type T = true -> in_range T x = true -> in_range T y = true ->
  (forall n, 0 <= n < CInt.bits T -> get_bit T x n = get_bit T y n) -> x = y.
Proof. exact raw_value_determined_by_bits. Qed.
Print Assumptions C15_raw_value_determined_by_bits.

Theorem C15_visit_set_spec : forall T bits idx,
  is_set_type T = true -> in_range T bits = true ->
  Forall (fun n => 0 <= n < CInt.bits T) idx ->
  visit_set T bits idx = map (fun n => Some (Z.testbit bits n)) idx.
Proof. exact visit_set_spec. Qed.
Print Assumptions C15_visit_set_spec.

(* ---- the same statements about the expression trees REGENERATED on every
   run from clang's typed AST of /repo's current bitset_base<T>::operator()
   (SrcExprs.v, harness/srcexprs.py), for all four widths ---- *)
From Coq Require Import String.
From Sbepp Require Import CExpr SrcExprs SrcExprsProofs.
Import ListNotations.
Local Open Scope string_scope.

Theorem C15_source_bit_independent : forall T bits n b,
  is_set_type T = true -> 0 <= n < CInt.bits T -> in_range T bits = true ->
  exists bits',
    effs_eval [("bits", bits); ("n", n); ("b", b2z b)] (src_set_bit T) = Some [bits'] /\
    in_range T bits' = true /\
    forall m, 0 <= m < CInt.bits T ->
      effs_eval [("bits", bits'); ("n", m)] (src_get_bit T)
      = Some [zb (if (m =? n)%Z then b else Z.testbit bits m)].
Proof. exact src_bitset_bit_independent. Qed.
Print Assumptions C15_source_bit_independent.

Theorem C15_source_get_bit_is_testbit : forall T bits n,
  is_set_type T = true -> 0 <= n < CInt.bits T -> in_range T bits = true ->
  effs_eval [("bits", bits); ("n", n)] (src_get_bit T) = Some [zb (Z.testbit bits n)].
Proof. exact src_get_bit_is_testbit. Qed.
Print Assumptions C15_source_get_bit_is_testbit.

(* the regenerated setter/getter ARE the hand-written model (so every theorem
   above applies to them), and they store into / return what the model says *)
Theorem C15_source_is_the_model : forall T bits n b,
  is_set_type T = true -> in_range T bits = true -> in_range U8 n = true ->
  effs_eval [("bits", bits); ("n", n)] (src_get_bit T) = option_map (fun b => [zb b]) (get_bit T bits n) /\
  effs_eval [("bits", bits); ("n", n); ("b", b2z b)] (src_set_bit T) = option_map (fun v => [v]) (set_bit T bits n b) /\
  map eff_target (src_get_bit T) = ["return"] /\ map eff_target (src_set_bit T) = ["bits="].
Proof.
  intros T bits n b HT Hb Hn. split; [|split].
  - exact (src_get_bit_is_model T bits n HT Hb Hn).
  - exact (src_set_bit_is_model T bits n b HT Hb Hn).
  - exact (src_bit_targets T HT).
Qed.
Print Assumptions C15_source_is_the_model.

(* equality (friend operator== / != as clang types them) compares the underlying values, hence is
   consistent with the choice getters *)
Theorem C15_source_equality_consistent : forall T a b,
  is_set_type T = true -> in_range T a = true -> in_range T b = true ->
  (effs_eval [("lhs.bits", a); ("rhs.bits", b)] (src_set_eq T) = Some [1] <->
   forall n, 0 <= n < CInt.bits T ->
     effs_eval [("bits", a); ("n", n)] (src_get_bit T) = effs_eval [("bits", b); ("n", n)] (src_get_bit T)).
Proof. exact src_set_equality_consistent. Qed.
Print Assumptions C15_source_equality_consistent.

Theorem C15_source_equality_is_value_equality : forall T a b,
  is_set_type T = true -> in_range T a = true -> in_range T b = true ->
  effs_eval [("lhs.bits", a); ("rhs.bits", b)] (src_set_eq T) = Some [zb (a =? b)%Z] /\
  effs_eval [("lhs.bits", a); ("rhs.bits", b)] (src_set_ne T) = Some [zb (negb (a =? b)%Z)].
Proof. exact src_set_eq_is_value_eq. Qed.
Print Assumptions C15_source_equality_is_value_equality.
