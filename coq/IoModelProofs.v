(* IoModelProofs.v — lemmas about IoModel.v (C20). *)
From Coq Require Import ZArith List Bool Arith Lia.
From Sbepp Require Import ListFacts IoModel.
Import ListNotations.

Lemma list_eqb_eq {A : Type} (eqb : A -> A -> bool) :
  (forall x y, eqb x y = true <-> x = y) ->
  forall a b, list_eqb eqb a b = true <-> a = b.
Proof.
  intros H a. induction a as [|x a IH]; intros [|y b]; simpl; split; intro E;
    try reflexivity; try discriminate.
  - apply andb_true_iff in E. destruct E as [E1 E2].
    apply H in E1. apply IH in E2. congruence.
  - inversion E; subst. apply andb_true_iff. split; [now apply H | now apply IH].
Qed.

Lemma name_eqb_eq a b : name_eqb a b = true <-> a = b.
Proof. apply list_eqb_eq. intros x y. apply Z.eqb_eq. Qed.

Lemma path_eqb_eq a b : path_eqb a b = true <-> a = b.
Proof. apply list_eqb_eq. apply name_eqb_eq. Qed.

Lemma path_eqb_spec a b : reflect (a = b) (path_eqb a b).
Proof. apply iff_reflect. symmetry. apply path_eqb_eq. Qed.

Lemma path_eqb_refl p : path_eqb p p = true.
Proof. now apply path_eqb_eq. Qed.

Definition same_files (a b : list (path * content)) : Prop :=
  forall p, lookup a p = lookup b p.

Lemma same_files_refl a : same_files a a.
Proof. intro p. reflexivity. Qed.

Lemma lookup_set_file fs p c q :
  lookup (set_file fs p c) q = if path_eqb p q then Some c else lookup fs q.
Proof.
  induction fs as [|[r d] fs IH]; simpl; [reflexivity|].
  destruct (path_eqb_spec r p) as [->|Hrp]; simpl.
  - destruct (path_eqb p q); reflexivity.
  - rewrite IH. destruct (path_eqb_spec r q) as [->|_]; [|reflexivity].
    destruct (path_eqb_spec p q); [congruence|reflexivity].
Qed.

Lemma set_file_same a b p c :
  same_files a b -> same_files (set_file a p c) (set_file b p c).
Proof. intros H q. rewrite !lookup_set_file. now rewrite H. Qed.

Lemma planned_same pl : forall a b, same_files a b -> same_files (planned pl a) (planned pl b).
Proof.
  induction pl as [|[p|p c] r IH]; intros a b H; simpl.
  - exact H.
  - now apply IH.
  - apply IH. now apply set_file_same.
Qed.

(* the last planned write to q, if any *)
Fixpoint last_write (pl : plan) (q : path) : option content :=
  match pl with
  | [] => None
  | Mkdir _ :: r => last_write r q
  | WriteFile p c :: r =>
    match last_write r q with
    | Some c' => Some c'
    | None => if path_eqb p q then Some c else None
    end
  end.

Lemma planned_lookup pl : forall fs q,
  lookup (planned pl fs) q =
  match last_write pl q with Some c => Some c | None => lookup fs q end.
Proof.
  induction pl as [|[p|p c] r IH]; intros fs q; simpl.
  - reflexivity.
  - apply IH.
  - rewrite IH. destruct (last_write r q); [reflexivity|].
    rewrite lookup_set_file. destruct (path_eqb p q); reflexivity.
Qed.

Lemma last_write_spec pl q :
  match last_write pl q with
  | Some c => In (q, c) (plan_files pl)
  | None => ~ In q (map fst (plan_files pl))
  end.
Proof.
  induction pl as [|[p|p d] r IH]; simpl.
  - tauto.
  - exact IH.
  - destruct (last_write r q) as [c|]; [right; exact IH|].
    destruct (path_eqb_spec p q) as [->|Hpq]; [left; reflexivity|].
    intros [H|H]; [exact (Hpq H)|exact (IH H)].
Qed.

Lemma last_write_none pl q : last_write pl q = None -> ~ In q (map fst (plan_files pl)).
Proof. intros H. pose proof (last_write_spec pl q) as S. rewrite H in S. exact S. Qed.

Lemma last_write_nodup pl : NoDup (map fst (plan_files pl)) ->
  forall q c, In (q, c) (plan_files pl) -> last_write pl q = Some c.
Proof.
  intros ND q c H. pose proof (last_write_spec pl q) as S.
  destruct (last_write pl q) as [c'|]; [|destruct S; exact (in_map fst _ _ H)].
  injection (NoDup_map_unique fst _ _ _ ND S H eq_refl) as ->. reflexivity.
Qed.

Definition wf_st (s : st) : Prop := next s = length (log s).

Definition clean_in (orc : oracle) (a b : nat) : Prop :=
  forall k, a <= k < b -> fails (orc k) = false.
Definition failed_in (orc : oracle) (a b : nat) : Prop :=
  exists k, a <= k < b /\ fails (orc k) = true.

Lemma clean_in_empty orc a : clean_in orc a a.
Proof. intros k H. lia. Qed.

Lemma clean_in_app orc a b c :
  clean_in orc a b -> clean_in orc b c -> clean_in orc a c.
Proof.
  intros H1 H2 k H. destruct (Nat.lt_ge_cases k b); [apply H1|apply H2]; lia.
Qed.

Lemma clean_in_one orc a : fails (orc a) = false -> clean_in orc a (S a).
Proof. intros H k Hk. assert (k = a) by lia. now subst. Qed.

Lemma failed_in_weaken orc a b a' b' :
  failed_in orc a b -> a' <= a -> b <= b' -> failed_in orc a' b'.
Proof. intros [k [H1 H2]] Ha Hb. exists k. split; [lia|exact H2]. Qed.

Lemma wf_tick s d c f : wf_st s -> wf_st (tick s d c f).
Proof. unfold wf_st, tick. simpl. intro H. now rewrite H. Qed.

(* What a piece of the run started in [s] guarantees about its outcome: if it
   returns, none of its calls failed and [Q] holds of the state it returns;
   if it throws, one of its calls failed. *)
Definition outcome_ok (orc : oracle) (s : st) (Q : st -> Prop) (o : outcome) : Prop :=
  match o with
  | Done s' => wf_st s' /\ next s <= next s' /\ clean_in orc (next s) (next s') /\ Q s'
  | Thrown s' _ => wf_st s' /\ failed_in orc (next s) (next s')
  end.

Lemma outcome_ok_done orc s (Q : st -> Prop) : wf_st s -> Q s -> outcome_ok orc s Q (Done s).
Proof. intros W H. repeat split; auto. apply clean_in_empty. Qed.

(* calls that did not fail may come before *)
Lemma outcome_ok_after orc s s1 Q o :
  next s <= next s1 -> clean_in orc (next s) (next s1) ->
  outcome_ok orc s1 Q o -> outcome_ok orc s Q o.
Proof.
  intros L C. destruct o as [s'|s' d]; simpl.
  - intros (W & L' & C' & H). repeat split; auto; [lia|]. now apply clean_in_app with (next s1).
  - intros (W & F). split; [exact W|]. apply (failed_in_weaken _ _ _ _ _ F); lia.
Qed.

Lemma outcome_ok_call orc s d c f Q o : orc (next s) = f -> fails f = false ->
  outcome_ok orc (tick s d c f) Q o -> outcome_ok orc s Q o.
Proof.
  intros E Hf. apply outcome_ok_after; simpl; [lia|]. apply clean_in_one. now rewrite E.
Qed.

Lemma outcome_ok_failed orc s d c f dg Q : wf_st s -> orc (next s) = f -> fails f = true ->
  outcome_ok orc s Q (Thrown (tick s d c f) dg).
Proof.
  intros W E Hf. split; [now apply wf_tick|]. exists (next s). simpl. split; [lia|]. now rewrite E.
Qed.

Lemma outcome_ok_bind orc s Q R o (k : st -> outcome) :
  outcome_ok orc s Q o ->
  (forall s', wf_st s' -> Q s' -> outcome_ok orc s' R (k s')) ->
  outcome_ok orc s R (match o with Done s' => k s' | Thrown s' d => Thrown s' d end).
Proof.
  destruct o as [s'|s' d]; simpl; [|auto]. intros (W & L & C & H) Hk.
  apply (outcome_ok_after _ _ s' _ _ L C). now apply Hk.
Qed.

(* a call after which the code throws exactly when the answer is a failure;
   the two answers that are not failures are treated alike *)
Lemma outcome_ok_try orc s c f d d' (dg : errno -> diag) Q o :
  wf_st s -> orc (next s) = f -> outcome_ok orc (tick s d c f) Q o ->
  outcome_ok orc s Q (match f with Fail e => Thrown (tick s d' c f) (dg e) | _ => o end).
Proof.
  intros W E H.
  destruct f as [|e|m]; [|exact (outcome_ok_failed _ _ _ _ _ _ _ W E eq_refl)|];
    exact (outcome_ok_call _ _ _ _ _ _ _ E eq_refl H).
Qed.

Lemma add_dir_files d p : files (add_dir d p) = files d.
Proof. unfold add_dir. destruct (is_dir d p); reflexivity. Qed.

(* create_directories (= [mkdirs] on the missing ancestors, by unfolding):
   whatever holds of the files still does *)
Lemma mkdirs_spec orc target (P : list (path * content) -> Prop) : forall ps s,
  wf_st s -> P (files (dk s)) ->
  outcome_ok orc s (fun s' => P (files (dk s'))) (mkdirs orc s target ps).
Proof.
  induction ps as [|q r IH]; intros s W H; cbn [mkdirs].
  - exact (outcome_ok_done _ _ _ W H).
  - apply outcome_ok_try with (d := add_dir (dk s) q); [exact W|reflexivity|].
    apply IH; [now apply wf_tick|simpl; now rewrite add_dir_files].
Qed.

Lemma accepted_bounds f n w : 1 <= n -> accepted f n = Some w -> 1 <= w <= n.
Proof.
  intros Hn. destruct f as [|e|m]; unfold accepted; [intros [= <-]; lia|discriminate|].
  destruct (Nat.leb_spec 2 n); intros [= <-]; [|lia].
  unfold short_len. pose proof (Nat.le_min_r m (n - 1)). apply Nat.max_case_strong; lia.
Qed.

Lemma accepted_none f n : accepted f n = None -> fails f = true.
Proof. destruct f; simpl; intro H; try discriminate; reflexivity. Qed.

Lemma accepted_some f n w : accepted f n = Some w -> fails f = false.
Proof. destruct f; simpl; intro H; try discriminate; reflexivity. Qed.

Lemma file_of_put d p c q :
  file_of (put_file d p c) q = if path_eqb p q then Some c else file_of d q.
Proof. unfold file_of, put_file. simpl. apply lookup_set_file. Qed.

Lemma write_loop_cons fuel orc s p b rest' :
  write_loop (S fuel) orc s p (b :: rest') =
  let rest := b :: rest' in
  match accepted (orc (next s)) (length rest) with
  | None => (tick s (dk s) (CWrite p (length rest) 0) (orc (next s)), false)
  | Some w =>
    write_loop fuel orc
      (tick s (append_file (dk s) p (firstn w rest)) (CWrite p (length rest) w) (orc (next s)))
      p (skipn w rest)
  end.
Proof. reflexivity. Qed.

(* The loop appends to [p] and touches nothing else.  While it runs [p] holds
   [pre], [rest] is still to be written, and [old] says what the other paths
   hold; an incomplete write is what write_file reports as DWrite. *)
Lemma write_loop_spec orc p all old : forall fuel s rest pre,
  length rest <= fuel -> wf_st s -> pre ++ rest = all ->
  (forall q, file_of (dk s) q = if path_eqb p q then Some pre else old q) ->
  outcome_ok orc s
    (fun s' => forall q, file_of (dk s') q = if path_eqb p q then Some all else old q)
    (let r := write_loop fuel orc s p rest in
     if snd r then Done (fst r) else Thrown (fst r) (DWrite p)).
Proof.
  induction fuel as [|fuel IH]; intros s rest pre Hf W Hall Hd;
    (destruct rest as [|b rest'];
     [rewrite app_nil_r in Hall; subst pre; now apply outcome_ok_done|]).
  - simpl in Hf. lia.
  - rewrite write_loop_cons. cbv zeta. remember (b :: rest') as rest eqn:Hrest.
    assert (Hn : 1 <= length rest) by (subst rest; simpl; lia).
    destruct (accepted (orc (next s)) (length rest)) as [w|] eqn:Ea.
    + pose proof (accepted_bounds _ _ _ Hn Ea) as Hw.
      eapply outcome_ok_call; [reflexivity|exact (accepted_some _ _ _ Ea)|].
      apply (IH _ _ (pre ++ firstn w rest)).
      * rewrite skipn_length. lia.
      * now apply wf_tick.
      * now rewrite <- app_assoc, firstn_skipn.
      * intros q. simpl. unfold append_file. rewrite file_of_put, !Hd, path_eqb_refl.
        destruct (path_eqb p q); reflexivity.
    + exact (outcome_ok_failed _ _ _ _ _ _ _ W eq_refl (accepted_none _ _ Ea)).
Qed.

(* fs_provider::write_file, repaired code *)
Lemma write_file_spec orc s p c fs :
  wf_st s -> same_files (files (dk s)) fs ->
  outcome_ok orc s (fun s' => same_files (files (dk s')) (set_file fs p c))
    (write_file orc s p c).
Proof.
  intros W F. unfold write_file, write_file_gen. cbv zeta.
  apply outcome_ok_try with (d := put_file (dk s) p []); [exact W|reflexivity|].
  set (s1 := tick s _ _ _).
  assert (Hd : forall q, file_of (dk s1) q = if path_eqb p q then Some [] else lookup fs q).
  { intros q. simpl. rewrite file_of_put. destruct (path_eqb p q); [reflexivity|apply F]. }
  pose proof (write_loop_spec orc p c _ (length c) s1 c [] (le_n _) (wf_tick _ _ _ _ W) eq_refl Hd) as H.
  cbv zeta in H. destruct (write_loop (length c) orc s1 p c) as [s2 [|]]; cbn [fst snd] in H.
  - destruct H as (W2 & L2 & C2 & H2). apply (outcome_ok_after _ _ s2 _ _ L2 C2).
    destruct (fails (orc (next s2))) eqn:Ec; cbn [andb negb].
    + exact (outcome_ok_failed _ _ _ _ _ _ _ W2 eq_refl Ec).
    + eapply outcome_ok_call; [reflexivity|exact Ec|]. apply outcome_ok_done; [now apply wf_tick|].
      intros q. rewrite lookup_set_file. apply H2.
  - destruct H as (W2 & F2). split; [now apply wf_tick|].
    apply (failed_in_weaken _ _ _ _ _ F2); simpl; lia.
Qed.

Lemma exec_spec orc : forall pl s fs,
  wf_st s -> same_files (files (dk s)) fs ->
  outcome_ok orc s (fun s' => same_files (files (dk s')) (planned pl fs)) (exec_gen true orc s pl).
Proof.
  induction pl as [|[p|p c] r IH]; intros s fs W F; cbn [exec_gen exec_step_gen planned].
  - exact (outcome_ok_done _ _ _ W F).
  - eapply outcome_ok_bind; [|intros s1 W1 F1; exact (IH s1 _ W1 F1)].
    exact (mkdirs_spec orc p (fun f => same_files f fs) _ s W F).
  - eapply outcome_ok_bind; [|intros s1 W1 F1; exact (IH s1 _ W1 F1)].
    exact (write_file_spec orc s p c fs W F).
Qed.

Lemma run_cases pl orc d0 :
  let r := run pl orc d0 in
  (status r = 0 /\ diagnostic r = None /\ clean_in orc 0 (ncalls r) /\
   same_files (files (final r)) (planned pl (files d0)))
  \/
  (status r = 1 /\ (exists d, diagnostic r = Some d) /\ failed_in orc 0 (ncalls r)).
Proof.
  unfold run, run_gen, ncalls.
  pose proof (exec_spec orc pl (mkSt 0 d0 []) _ eq_refl (same_files_refl _)) as H.
  destruct (exec_gen true orc (mkSt 0 d0 []) pl) as [s|s d]; simpl in *.
  - destruct H as (W & _ & C & S). left. rewrite rev_length, <- W. auto.
  - destruct H as (W & C). right. rewrite rev_length, <- W. eauto.
Qed.

(* exit status 0 => the files on the disk are exactly what the plan asks for *)
Lemma exit0_complete pl orc d0 :
  status (run pl orc d0) = 0 ->
  forall p, file_of (final (run pl orc d0)) p = lookup (planned pl (files d0)) p.
Proof.
  intros H p. destruct (run_cases pl orc d0) as [[_ [_ [_ S]]]|[E _]].
  - apply S.
  - rewrite E in H. discriminate.
Qed.

(* ... in particular every planned file is there with exactly its content *)
Lemma exit0_every_file pl orc d0 :
  NoDup (map fst (plan_files pl)) ->
  status (run pl orc d0) = 0 ->
  forall p c, In (p, c) (plan_files pl) -> file_of (final (run pl orc d0)) p = Some c.
Proof.
  intros ND H p c Hin. rewrite (exit0_complete pl orc d0 H).
  rewrite planned_lookup, (last_write_nodup pl ND p c Hin). reflexivity.
Qed.

(* ... and nothing else was touched *)
Lemma exit0_others_untouched pl orc d0 :
  status (run pl orc d0) = 0 ->
  forall p, ~ In p (map fst (plan_files pl)) ->
  file_of (final (run pl orc d0)) p = file_of d0 p.
Proof.
  intros H p Hn. rewrite (exit0_complete pl orc d0 H), planned_lookup.
  pose proof (last_write_spec pl p) as S. destruct (last_write pl p) as [c|]; [|reflexivity].
  destruct Hn. exact (in_map fst _ _ S).
Qed.

(* a primitive call that was made failed => non-zero status and a diagnostic *)
Lemma fault_reported pl orc d0 :
  (exists k, k < ncalls (run pl orc d0) /\ fails (orc k) = true) ->
  status (run pl orc d0) <> 0 /\ diagnostic (run pl orc d0) <> None.
Proof.
  intros [k [Hk Hf]]. destruct (run_cases pl orc d0) as [[_ [_ [C _]]]|[E [[d D] _]]].
  - rewrite (C k) in Hf; [discriminate|lia].
  - rewrite E, D. split; discriminate.
Qed.

(* conversely a non-zero status is never spurious *)
Lemma error_only_on_fault pl orc d0 :
  status (run pl orc d0) <> 0 ->
  exists k, k < ncalls (run pl orc d0) /\ fails (orc k) = true.
Proof.
  intros H. destruct (run_cases pl orc d0) as [[E _]|[_ [_ [k [Hk Hf]]]]].
  - contradiction.
  - exists k. split; [lia|exact Hf].
Qed.

(* no call that is made fails (short writes allowed) => status 0, no
   diagnostic, disk = plan *)
Lemma no_fault_ok pl orc d0 :
  (forall k, k < ncalls (run pl orc d0) -> fails (orc k) = false) ->
  status (run pl orc d0) = 0 /\ diagnostic (run pl orc d0) = None /\
  forall p, file_of (final (run pl orc d0)) p = lookup (planned pl (files d0)) p.
Proof.
  intros H. destruct (run_cases pl orc d0) as [[E [D [_ S]]]|[_ [_ [k [Hk Hf]]]]].
  - auto.
  - rewrite H in Hf; [discriminate|lia].
Qed.

(* status is 0 or 1 and the diagnostic is there exactly when it is 1 *)
Lemma status_diag pl orc d0 :
  (status (run pl orc d0) = 0 /\ diagnostic (run pl orc d0) = None) \/
  (status (run pl orc d0) = 1 /\ exists d, diagnostic (run pl orc d0) = Some d).
Proof.
  destruct (run_cases pl orc d0) as [[E [D _]]|[E [D _]]]; auto.
Qed.

(* compiling again into the populated directory asks for the same files *)
Lemma planned_idempotent pl fs :
  forall p, lookup (planned pl (planned pl fs)) p = lookup (planned pl fs) p.
Proof.
  intro p. rewrite !planned_lookup. destruct (last_write pl p); reflexivity.
Qed.

Lemma rerun_same_files pl orc1 orc2 d0 :
  status (run pl orc1 d0) = 0 ->
  status (run pl orc2 (final (run pl orc1 d0))) = 0 ->
  forall p, file_of (final (run pl orc2 (final (run pl orc1 d0)))) p
            = file_of (final (run pl orc1 d0)) p.
Proof.
  intros H1 H2 p. rewrite (exit0_complete _ _ _ H2), (exit0_complete _ _ _ H1).
  rewrite (planned_same pl _ _ (exit0_complete _ _ _ H1)). apply planned_idempotent.
Qed.

Lemma plan_files_app a b : plan_files (a ++ b) = plan_files a ++ plan_files b.
Proof.
  induction a as [|[p|p c] a IH]; simpl; auto. now rewrite IH.
Qed.

Lemma plan_files_map (f : name * content -> path) l :
  plan_files (map (fun nc => WriteFile (f nc) (snd nc)) l) = map (fun nc => (f nc, snd nc)) l.
Proof. induction l as [|x l IH]; simpl; auto. now rewrite IH. Qed.

Lemma plan_dirs_app a b : plan_dirs (a ++ b) = plan_dirs a ++ plan_dirs b.
Proof.
  induction a as [|[p|p c] a IH]; simpl; auto. now rewrite IH.
Qed.

Lemma plan_dirs_map (f : name * content -> path) l :
  plan_dirs (map (fun nc => WriteFile (f nc) (snd nc)) l) = [].
Proof. induction l as [|x l IH]; simpl; auto. Qed.

(* the generated files, by their paths below <output-dir>/<schema> *)
Definition rel_files (g : generated) : list (path * content) :=
  map (fun nc => ([s_types; fst nc ++ s_hpp], snd nc)) (type_files g)
  ++ [([s_schema; s_schema ++ s_hpp], schema_hdr g)]
  ++ map (fun nc => ([s_messages; fst nc ++ s_hpp], snd nc)) (message_files g)
  ++ [([schema_name g ++ s_hpp], top_hdr g)].

Lemma plan_files_plan_of g :
  plan_files (plan_of g) =
  map (fun rc => ((out_dir g ++ [schema_name g]) ++ fst rc, snd rc)) (rel_files g).
Proof.
  unfold plan_of, rel_files. cbv zeta. rewrite !plan_files_app, !plan_files_map, !map_app, !map_map.
  reflexivity.
Qed.

Lemma plan_dirs_plan_of g :
  plan_dirs (plan_of g) =
  map (app (out_dir g ++ [schema_name g])) [[s_schema]; [s_types]; [s_messages]].
Proof.
  unfold plan_of. cbv zeta. rewrite !plan_dirs_app, !plan_dirs_map. reflexivity.
Qed.

Lemma rel_files_in g :
  (forall n c, In (n, c) (type_files g) -> In ([s_types; n ++ s_hpp], c) (rel_files g)) /\
  In ([s_schema; s_schema ++ s_hpp], schema_hdr g) (rel_files g) /\
  (forall n c, In (n, c) (message_files g) -> In ([s_messages; n ++ s_hpp], c) (rel_files g)) /\
  In ([schema_name g ++ s_hpp], top_hdr g) (rel_files g).
Proof.
  unfold rel_files. cbn [app]. repeat split.
  - intros n c H. apply in_or_app. left.
    apply (in_map (fun nc => ([s_types; fst nc ++ s_hpp], snd nc)) _ _ H).
  - apply in_or_app. right. left. reflexivity.
  - intros n c H. apply in_or_app. right. right. apply in_or_app. left.
    apply (in_map (fun nc => ([s_messages; fst nc ++ s_hpp], snd nc)) _ _ H).
  - apply in_or_app. right. right. apply in_or_app. right. left. reflexivity.
Qed.

(* the four kinds of path differ in their directory or, the top header, in
   their length *)
Lemma rel_files_nodup g :
  NoDup (map fst (type_files g)) -> NoDup (map fst (message_files g)) ->
  NoDup (map fst (rel_files g)).
Proof.
  intros HT HM. unfold rel_files. rewrite !map_app, !map_map. cbn [map fst].
  assert (Hinj : forall d (x y : name * content),
            [d; fst x ++ s_hpp] = [d; fst y ++ s_hpp] -> fst x = fst y).
  { intros d x y [= E]. now apply app_inv_tail in E. }
  apply NoDup_app'; [exact (NoDup_map_finer fst _ _ (Hinj s_types) HT)| |].
  - apply (NoDup_app' [_]); [constructor; [intros []|constructor]| |].
    + apply NoDup_app'; [exact (NoDup_map_finer fst _ _ (Hinj s_messages) HM)|constructor; [intros []|constructor]|].
      intros x Hx [<-|[]]. apply in_map_iff in Hx as (nc & E & _). discriminate.
    + intros x [<-|[]] Hy. apply in_app_iff in Hy as [Hy|[Hy|[]]];
        [apply in_map_iff in Hy as (nc & Hy & _)|]; discriminate.
  - intros x Hx Hy. apply in_map_iff in Hx as (nc & <- & _).
    apply in_app_iff in Hy as [[Hy|[]]|Hy]; [discriminate|].
    apply in_app_iff in Hy as [Hy|[Hy|[]]]; [apply in_map_iff in Hy as (nc' & Hy & _)|]; discriminate.
Qed.

Lemma plan_of_nodup g :
  NoDup (map fst (type_files g)) -> NoDup (map fst (message_files g)) ->
  NoDup (map fst (plan_files (plan_of g))).
Proof.
  intros HT HM. rewrite plan_files_plan_of, map_map. cbn [fst].
  apply (NoDup_map_finer fst); [|exact (rel_files_nodup g HT HM)].
  intros x y E. exact (app_inv_head _ _ _ E).
Qed.

Lemma plan_of_in g r c : In (r, c) (rel_files g) ->
  In ((out_dir g ++ [schema_name g]) ++ r, c) (plan_files (plan_of g)).
Proof.
  intros H. rewrite plan_files_plan_of.
  exact (in_map (fun rc => ((out_dir g ++ [schema_name g]) ++ fst rc, snd rc)) _ _ H).
Qed.

(* exit 0 => every header sbeppc generates is on the disk, complete *)
Lemma exit0_complete_sbeppc g orc d0 :
  NoDup (map fst (type_files g)) -> NoDup (map fst (message_files g)) ->
  status (run (plan_of g) orc d0) = 0 ->
  let base := out_dir g ++ [schema_name g] in
  let d := final (run (plan_of g) orc d0) in
  (forall n c, In (n, c) (type_files g) -> file_of d (base ++ [s_types; n ++ s_hpp]) = Some c) /\
  file_of d (base ++ [s_schema; s_schema ++ s_hpp]) = Some (schema_hdr g) /\
  (forall n c, In (n, c) (message_files g) -> file_of d (base ++ [s_messages; n ++ s_hpp]) = Some c) /\
  file_of d (base ++ [schema_name g ++ s_hpp]) = Some (top_hdr g).
Proof.
  intros HT HM H. cbv zeta.
  pose proof (exit0_every_file (plan_of g) orc d0 (plan_of_nodup g HT HM) H) as A.
  destruct (rel_files_in g) as (I1 & I2 & I3 & I4).
  repeat split; intros; apply A, plan_of_in; auto.
Qed.

(* every file is opened in a directory the plan itself asked for (or the
   parent of one): a missing parent is never the plan's own doing *)
Lemma plan_of_parents g :
  forall p c, In (p, c) (plan_files (plan_of g)) ->
  exists d f, p = d ++ [f] /\
    (In d (plan_dirs (plan_of g)) \/ exists x, In (d ++ [x]) (plan_dirs (plan_of g))).
Proof.
  intros p c H. rewrite plan_dirs_plan_of. rewrite plan_files_plan_of in H.
  set (base := out_dir g ++ [schema_name g]) in *. set (ds := [[s_schema]; [s_types]; [s_messages]]).
  assert (Hsub : forall d f, In [d] ds -> exists d' f', base ++ [d; f] = d' ++ [f'] /\
            (In d' (map (app base) ds) \/ exists x, In (d' ++ [x]) (map (app base) ds))).
  { intros d f Hd. exists (base ++ [d]), f. rewrite <- app_assoc.
    split; [reflexivity|]. left. exact (in_map (app base) _ _ Hd). }
  apply in_map_iff in H as ([r c'] & [= <- _] & H). unfold rel_files in H. cbn [fst app] in *.
  apply in_app_iff in H as [H|H]; [|destruct H as [H|H]; [|apply in_app_iff in H as [H|[H|[]]]]].
  - apply in_map_iff in H as (nc & [= <- _] & _). apply Hsub. simpl. auto.
  - injection H as <- _. apply Hsub. simpl. auto.
  - apply in_map_iff in H as (nc & [= <- _] & _). apply Hsub. simpl. auto.
  - injection H as <- _. exists base, (schema_name g ++ s_hpp). split; [reflexivity|].
    right. exists s_schema. simpl. auto.
Qed.

(* one file of three bytes, the write(2) fails with ENOSPC: exit status 0,
   no diagnostic, and the file is there but empty *)
Definition w_path : path := [[111%Z]; [97%Z]].
Definition w_plan : plan := [WriteFile w_path [1%Z; 2%Z; 3%Z]].
Definition w_orc : oracle := fun k => if k =? 1 then Fail ENOSPC else NoFault.

Example legacy_exit0_complete_refuted :
  status (Legacy.run w_plan w_orc empty_disk) = 0 /\
  diagnostic (Legacy.run w_plan w_orc empty_disk) = None /\
  file_of (final (Legacy.run w_plan w_orc empty_disk)) w_path = Some [] /\
  In (w_path, [1%Z; 2%Z; 3%Z]) (plan_files w_plan) /\
  fails (w_orc 1) = true /\ 1 < ncalls (Legacy.run w_plan w_orc empty_disk).
Proof. vm_compute. repeat split; auto. Qed.

(* a short write followed by a failing one leaves a truncated file, still exit 0 *)
Definition w_orc2 : oracle :=
  fun k => if k =? 1 then Short 2 else if k =? 2 then Fail EIO else NoFault.
Example legacy_truncated_refuted :
  status (Legacy.run w_plan w_orc2 empty_disk) = 0 /\
  file_of (final (Legacy.run w_plan w_orc2 empty_disk)) w_path = Some [1%Z; 2%Z].
Proof. vm_compute. auto. Qed.

(* a failing close (deferred write error, e.g. NFS/quota) is not seen either *)
Definition w_orc3 : oracle := fun k => if k =? 2 then Fail EIO else NoFault.
Example legacy_close_refuted :
  status (Legacy.run w_plan w_orc3 empty_disk) = 0 /\
  diagnostic (Legacy.run w_plan w_orc3 empty_disk) = None.
Proof. vm_compute. auto. Qed.

(* the repaired code on the same inputs *)
Example fixed_on_witness :
  status (run w_plan w_orc empty_disk) = 1 /\
  diagnostic (run w_plan w_orc empty_disk) = Some (DWrite w_path) /\
  status (run w_plan w_orc2 empty_disk) = 1 /\
  status (run w_plan w_orc3 empty_disk) = 1.
Proof. vm_compute. auto. Qed.

Definition g0 : generated :=
  mkGenerated [[111%Z]] [115%Z]
    [([104%Z], [1%Z; 2%Z; 3%Z; 4%Z; 5%Z]); ([103%Z], [6%Z])]
    [7%Z; 8%Z] [([109%Z], [9%Z; 10%Z; 11%Z])] [12%Z].

(* short writes everywhere (every call is answered Short 1) *)
Definition all_short : oracle := fun _ => Short 1.

Example exit0_complete_sbeppc_nonvacuous :
  NoDup (map fst (type_files g0)) /\ NoDup (map fst (message_files g0)) /\
  status (run (plan_of g0) no_fault empty_disk) = 0.
Proof.
  vm_compute. split; [|split; [|reflexivity]];
  repeat (constructor; [simpl; intuition discriminate|]); constructor.
Qed.

Example exit0_complete_nonvacuous :
  status (run (plan_of g0) all_short empty_disk) = 0 /\
  NoDup (map fst (plan_files (plan_of g0))) /\
  ncalls (run (plan_of g0) all_short empty_disk) = 27.
Proof.
  destruct exit0_complete_sbeppc_nonvacuous as (HT & HM & _).
  split; [vm_compute; reflexivity|]. split; [exact (plan_of_nodup g0 HT HM)|vm_compute; reflexivity].
Qed.

(* the 7th call (index 6: the write of the first type header) fails *)
Definition fail6 : oracle := fun k => if k =? 6 then Fail ENOSPC else NoFault.
Example fault_reported_nonvacuous :
  6 < ncalls (run (plan_of g0) fail6 empty_disk) /\ fails (fail6 6) = true /\
  status (run (plan_of g0) fail6 empty_disk) = 1.
Proof. vm_compute. repeat split; auto. Qed.

Example no_fault_ok_nonvacuous :
  (forall k, k < ncalls (run (plan_of g0) all_short empty_disk) -> fails (all_short k) = false) /\
  ncalls (run (plan_of g0) no_fault empty_disk) = 20.
Proof. split; [reflexivity|vm_compute; reflexivity]. Qed.

Example rerun_nonvacuous :
  let d1 := final (run (plan_of g0) no_fault empty_disk) in
  status (run (plan_of g0) no_fault d1) = 0 /\
  ncalls (run (plan_of g0) no_fault d1) = 15.   (* no mkdir the second time *)
Proof. vm_compute. auto. Qed.
