(* OptionalProofs.v — proofs about Optional.v (optional/required scalars).
   Statements re-exported in Properties_C16.v. *)
From Coq Require Import ZArith Bool Lia.
From Sbepp Require Import CInt CIntFacts Fp FpProofs Optional.
Import IEEE Opt.
Local Open Scope Z_scope.

Lemma int_cmp_spec t a b :
  CInt.in_range t a = true -> CInt.in_range t b = true ->
  int_cmp t a b = ord_of_comparison (a ?= b).
Proof.
  intros Ha Hb. unfold int_cmp. rewrite uac_same.
  rewrite !wrap_id by (apply in_range_promote; assumption). reflexivity.
Qed.

Lemma int_cmp_refl t a : int_cmp t a a = Equal.
Proof. unfold int_cmp. rewrite Z.compare_refl. reflexivity. Qed.

Lemma p_cmp_spec p a b :
  pvalid p a = true -> pvalid p b = true -> p_cmp p a b = spec_val_cmp p a b.
Proof.
  unfold pvalid, p_cmp, spec_val_cmp. destruct (kind p) as [t|f]; intros Ha Hb.
  - apply int_cmp_spec; assumption.
  - reflexivity.
Qed.

Lemma fcompare_nan_l f a b : is_nan f a = true -> fcompare f a b = FUn.
Proof. intros H. unfold fcompare. rewrite H. reflexivity. Qed.

Lemma fcompare_nan_r f a b : is_nan f b = true -> fcompare f a b = FUn.
Proof. intros H. unfold fcompare. rewrite H, orb_true_r. reflexivity. Qed.

(* v != v is exactly the NaN test *)
Lemma p_ne_self p v : p_ne p v v = spec_is_nan p v.
Proof.
  unfold p_ne, p_cmp, spec_is_nan. destruct (kind p) as [t|f].
  - rewrite int_cmp_refl. reflexivity.
  - rewrite fcompare_refl. destruct (is_nan f v); reflexivity.
Qed.

Lemma ord_le_compare a b : ord_le (ord_of_comparison (a ?= b)) = (a <=? b).
Proof. unfold Z.leb. destruct (a ?= b); reflexivity. Qed.

Lemma ord_eq_compare a b : ord_eq (ord_of_comparison (a ?= b)) = (a =? b).
Proof. rewrite Z.eqb_compare. destruct (a ?= b); reflexivity. Qed.

Lemma is_null_spec d v :
  pvalid (td_prim d) v = true -> pvalid (td_prim d) (td_null d) = true ->
  is_null d v = spec_null d v.
Proof.
  intros Hv Hn. unfold is_null, spec_null, p_eq.
  rewrite !p_ne_self, (p_cmp_spec _ _ _ Hv Hn). reflexivity.
Qed.

Lemma has_value_spec d v :
  pvalid (td_prim d) v = true -> pvalid (td_prim d) (td_null d) = true ->
  has_value d v = negb (spec_null d v) /\ to_bool d v = negb (spec_null d v).
Proof.
  intros Hv Hn. unfold to_bool, has_value. rewrite (is_null_spec d v Hv Hn). split; reflexivity.
Qed.

(* the null value is null, whatever it is (also when it is NaN): [is_null] is
   e || (!e && !e) for e the outcome of null == null *)
Lemma null_is_null d : is_null d (td_null d) = true.
Proof.
  unfold is_null, p_eq, p_ne, ord_ne. destruct (ord_eq _); reflexivity.
Qed.

Lemma default_is_null d :
  has_value d (opt_default d) = false /\
  to_bool d (opt_default d) = false /\
  opt_nullopt d = opt_default d /\
  has_value d (opt_nullopt d) = false.
Proof.
  unfold to_bool, has_value, opt_nullopt, opt_default. rewrite null_is_null. repeat split.
Qed.

Lemma value_or_spec d v dflt :
  pvalid (td_prim d) v = true -> pvalid (td_prim d) (td_null d) = true ->
  value_or d v dflt = spec_value_or d v dflt.
Proof.
  intros Hv Hn. unfold value_or, spec_value_or.
  destruct (has_value_spec d v Hv Hn) as [_ ->]. destruct (spec_null d v); reflexivity.
Qed.

Lemma in_range_spec d v :
  pvalid (td_prim d) v = true ->
  pvalid (td_prim d) (td_min d) = true -> pvalid (td_prim d) (td_max d) = true ->
  opt_in_range d v = spec_in_range d v /\ Req.req_in_range d v = spec_in_range d v.
Proof.
  intros Hv Hmin Hmax. unfold opt_in_range, Req.req_in_range, spec_in_range, p_le.
  rewrite (p_cmp_spec _ _ _ Hmin Hv), (p_cmp_spec _ _ _ Hv Hmax). split; reflexivity.
Qed.

(* for the integer types the specification of in_range is min <= v <= max *)
Lemma spec_in_range_int d v t :
  kind (td_prim d) = KInt t ->
  spec_in_range d v = (td_min d <=? v) && (v <=? td_max d).
Proof.
  intros Hk. unfold spec_in_range, spec_val_cmp. rewrite Hk, !ord_le_compare. reflexivity.
Qed.

(* What both implementations compute: the three-way outcome of comparing two
   optionals.  [Cxx20.cmp3] is [Some] of it by definition. *)
Definition opt_ord (d : tdesc) (l r : Z) : ord :=
  if has_value d l && has_value d r then p_cmp (td_prim d) l r
  else bool_cmp (has_value d l) (has_value d r).

Lemma pre20_all_ord d l r : Pre20.all d l r = Some (cmp6_of_ord (opt_ord d l r)).
Proof.
  cbv -[has_value p_cmp td_prim].
  destruct (has_value d l), (has_value d r), (p_cmp (td_prim d) l r); reflexivity.
Qed.

Lemma cxx20_all_ord d l r : Cxx20.all d l r = Some (cmp6_of_ord (opt_ord d l r)).
Proof.
  cbv -[has_value p_cmp td_prim].
  destruct (has_value d l), (has_value d r), (p_cmp (td_prim d) l r); reflexivity.
Qed.

Lemma opt_ord_spec d l r :
  pvalid (td_prim d) l = true -> pvalid (td_prim d) r = true ->
  pvalid (td_prim d) (td_null d) = true ->
  opt_ord d l r = spec_cmp d l r.
Proof.
  intros Hl Hr Hn. unfold opt_ord, spec_cmp, has_value.
  rewrite !is_null_spec, p_cmp_spec by assumption.
  destruct (spec_null d l), (spec_null d r); reflexivity.
Qed.

Lemma compare_spec d l r :
  pvalid (td_prim d) l = true -> pvalid (td_prim d) r = true ->
  pvalid (td_prim d) (td_null d) = true ->
  Pre20.all d l r = Some (cmp6_of_ord (spec_cmp d l r)) /\
  Cxx20.all d l r = Some (cmp6_of_ord (spec_cmp d l r)) /\
  Cxx20.cmp3 d l r = Some (spec_cmp d l r).
Proof.
  intros Hl Hr Hn. rewrite <- (opt_ord_spec d l r Hl Hr Hn), pre20_all_ord, cxx20_all_ord.
  repeat split.
Qed.

Lemma required_compare_spec d l r :
  pvalid (td_prim d) l = true -> pvalid (td_prim d) r = true ->
  Req.Pre20.all d l r = Some (cmp6_of_ord (spec_val_cmp (td_prim d) l r)) /\
  Req.Cxx20.all d l r = Some (cmp6_of_ord (spec_val_cmp (td_prim d) l r)) /\
  Req.Cxx20.cmp3 d l r = Some (spec_val_cmp (td_prim d) l r).
Proof.
  (* the three are [cmp6_of_ord (p_cmp ...)] resp. [p_cmp ...] by definition *)
  intros Hl Hr. rewrite <- (p_cmp_spec _ _ _ Hl Hr). repeat split.
Qed.

(* the documented rules, read off the operators directly *)
Lemma null_equals_only_null d l r :
  pvalid (td_prim d) l = true -> pvalid (td_prim d) r = true ->
  pvalid (td_prim d) (td_null d) = true ->
  has_value d l = false ->
  opt_eq d l r = negb (has_value d r) /\
  opt_eq d r l = negb (has_value d r) /\
  Pre20.ne d l r = has_value d r /\
  Pre20.ne d r l = has_value d r.
Proof.
  intros _ _ _ Hnull. unfold Pre20.ne, opt_eq, to_bool. rewrite Hnull, andb_false_r.
  destruct (has_value d r); repeat split.
Qed.

Lemma null_before_every_value d l r :
  has_value d l = false -> has_value d r = true ->
  Pre20.all d l r = Some (cmp6_of_ord Less) /\ Cxx20.all d l r = Some (cmp6_of_ord Less) /\
  Pre20.all d r l = Some (cmp6_of_ord Greater) /\ Cxx20.all d r l = Some (cmp6_of_ord Greater).
Proof.
  intros Hl Hr. rewrite !pre20_all_ord, !cxx20_all_ord. unfold opt_ord. rewrite Hl, Hr.
  repeat split.
Qed.

Lemma values_compare_underlying d l r :
  pvalid (td_prim d) l = true -> pvalid (td_prim d) r = true ->
  has_value d l = true -> has_value d r = true ->
  Pre20.all d l r = Some (cmp6_of_ord (spec_val_cmp (td_prim d) l r)) /\
  Cxx20.all d l r = Some (cmp6_of_ord (spec_val_cmp (td_prim d) l r)).
Proof.
  intros Hvl Hvr Hl Hr. rewrite pre20_all_ord, cxx20_all_ord. unfold opt_ord.
  rewrite Hl, Hr, <- (p_cmp_spec _ _ _ Hvl Hvr). split; reflexivity.
Qed.

(* the repair does not change anything for the integer types *)
Lemma legacy_same_on_integers d l r t :
  kind (td_prim d) = KInt t ->
  pvalid (td_prim d) l = true -> pvalid (td_prim d) r = true ->
  pvalid (td_prim d) (td_null d) = true ->
  Legacy.has_value d l = has_value d l /\
  Legacy.value_or d l r = value_or d l r /\
  Legacy.Pre20.all d l r = Pre20.all d l r /\
  Legacy.Cxx20.all d l r = Cxx20.all d l r.
Proof.
  intros Hk _ _ _.
  (* no NaN: is_null is v == null *)
  assert (Hh : forall v, Legacy.has_value d v = has_value d v).
  { intros v. unfold has_value, is_null. rewrite !p_ne_self. unfold spec_is_nan.
    rewrite Hk, orb_false_r. reflexivity. }
  (* == on values decides as == on optionals, because == is equality of the
     converted integers *)
  assert (He : Legacy.opt_eq d l r = opt_eq d l r).
  { unfold opt_eq, to_bool. rewrite <- !Hh.
    unfold Legacy.opt_eq, Legacy.has_value, p_ne, p_eq, ord_ne, p_cmp, int_cmp.
    rewrite Hk, !ord_eq_compare. set (c := uac t t).
    destruct (Z.eqb_spec (wrap c l) (wrap c (td_null d))) as [->|],
             (Z.eqb_spec (wrap c r) (wrap c (td_null d))) as [->|]; cbn;
      rewrite ?Z.eqb_refl; try reflexivity; apply Z.eqb_neq; congruence. }
  split; [apply Hh|].
  split; [unfold Legacy.value_or, Legacy.to_bool; rewrite Hh; reflexivity|].
  split.
  - unfold Legacy.Pre20.all, Legacy.Pre20.ne, Legacy.Pre20.lt, Legacy.Pre20.le,
      Legacy.Pre20.gt, Legacy.Pre20.ge, Legacy.to_bool.
    change (p_ne (td_prim d) l r) with (negb (Legacy.opt_eq d l r)).
    rewrite He, !Hh. reflexivity.
  - unfold Legacy.Cxx20.all, Legacy.Cxx20.cmp3, Legacy.to_bool.
    rewrite Hk, He, !Hh. reflexivity.
Qed.

(* the code before the repair violates the property *)

Example legacy_float_default_has_value_refuted :
  Legacy.has_value (builtin PFloat) (Legacy.opt_default (builtin PFloat)) = true /\
  Legacy.has_value (builtin PDouble) (Legacy.opt_nullopt (builtin PDouble)) = true.
Proof. vm_compute. split; reflexivity. Qed.

Example legacy_float_null_ne_null_refuted :
  Legacy.opt_eq (builtin PFloat) (Legacy.opt_default (builtin PFloat))
                (Legacy.opt_nullopt (builtin PFloat)) = false /\
  Legacy.Pre20.ne (builtin PDouble) (Legacy.opt_default (builtin PDouble))
                (Legacy.opt_default (builtin PDouble)) = true.
Proof. vm_compute. split; reflexivity. Qed.

Example legacy_float_value_or_refuted :
  (* default-constructed float_opt_t .value_or(1.0f) returns the NaN, not 1.0f *)
  Legacy.value_or (builtin PFloat) (Legacy.opt_default (builtin PFloat)) 1065353216
    = fl_qnan F32.
Proof. vm_compute. reflexivity. Qed.

Example legacy_float_spaceship_refuted :
  (* C++20: float_opt_t{1.0f} < float_opt_t{2.0f} does not compile *)
  Legacy.Cxx20.all (builtin PFloat) 1065353216 1073741824 = None /\
  Legacy.Cxx20.cmp3 (builtin PDouble) 0 0 = None.
Proof. vm_compute. split; reflexivity. Qed.

(* non-vacuity: the hypotheses of the theorems above are satisfiable, on
   instances that exercise NaN, infinities and the integer extremes *)

Definition f32_one : Z := 1065353216.       (* 0x3f800000 *)
Definition f32_ninf : Z := 4286578688.      (* 0xff800000 *)
Definition f32_nan2 : Z := 4290772993.      (* 0xffc00001: negative NaN, payload 1 *)

Example default_is_null_nonvacuous :
  has_value (builtin PFloat) (opt_default (builtin PFloat)) = false /\
  has_value (builtin PInt64) (opt_nullopt (builtin PInt64)) = false /\
  has_value (builtin PFloat) f32_nan2 = false /\
  has_value (builtin PFloat) f32_ninf = true.
Proof. vm_compute. repeat split; reflexivity. Qed.

Example compare_spec_nonvacuous :
  let d := builtin PFloat in
  pvalid PFloat f32_nan2 = true /\ pvalid PFloat f32_ninf = true /\
  pvalid PFloat (td_null d) = true /\
  Pre20.all d f32_nan2 f32_ninf = Some (cmp6_of_ord Less) /\
  Cxx20.all d f32_ninf f32_one = Some (cmp6_of_ord Less) /\
  Cxx20.cmp3 d (td_null d) f32_nan2 = Some Equal /\
  (* a type whose null is not NaN: NaN is an (unordered) value *)
  Cxx20.cmp3 (mk_tdesc PFloat (fl_min F32) (fl_max F32) f32_ninf) f32_nan2 f32_one
    = Some Unordered /\
  Pre20.all (builtin PInt8) (-128) 127 = Some (cmp6_of_ord Less) /\
  Pre20.all (builtin PUint64) 18446744073709551615 0 = Some (cmp6_of_ord Less) /\
  Pre20.all (builtin PUint64) 18446744073709551614 0 = Some (cmp6_of_ord Greater).
Proof. intros d. repeat apply conj; vm_compute; reflexivity. Qed.

Example value_or_spec_nonvacuous :
  value_or (builtin PDouble) (fl_qnan F64) 7 = 7 /\
  value_or (builtin PDouble) (fl_inf F64) 7 = fl_inf F64 /\
  value_or (builtin PChar) 0 65 = 65 /\ value_or (builtin PChar) 66 65 = 66.
Proof. vm_compute. repeat split; reflexivity. Qed.

Example in_range_spec_nonvacuous :
  opt_in_range (builtin PFloat) (fl_qnan F32) = false /\
  opt_in_range (builtin PFloat) (fl_max F32) = true /\
  opt_in_range (builtin PFloat) (fl_inf F32) = false /\
  opt_in_range (builtin PFloat) 0 = false /\
  opt_in_range (builtin PInt8) (-128) = false /\
  opt_in_range (builtin PInt8) (-127) = true /\
  Req.req_in_range (builtin PUint8) 255 = false.
Proof. vm_compute. repeat split; reflexivity. Qed.

Example required_compare_spec_nonvacuous :
  Req.Cxx20.all (builtin PDouble) (fl_qnan F64) (fl_qnan F64) = Some (cmp6_of_ord Unordered) /\
  Req.Pre20.all (builtin PDouble) 0 (2 ^ 63) = Some (cmp6_of_ord Equal) /\  (* +0 == -0 *)
  Req.Pre20.all (builtin PInt32) (-2147483648) 2147483647 = Some (cmp6_of_ord Less).
Proof. vm_compute. repeat split; reflexivity. Qed.

Example has_value_spec_nonvacuous :
  let d := builtin PDouble in
  pvalid PDouble (fl_inf F64) = true /\ pvalid PDouble (td_null d) = true /\
  has_value d (fl_inf F64) = true /\ spec_null d (fl_inf F64) = false /\
  has_value d (fl_qnan F64 + 1) = false /\ spec_null d (fl_qnan F64 + 1) = true /\
  has_value (builtin PUint8) 255 = false /\ has_value (builtin PUint8) 254 = true.
Proof. intros d. repeat apply conj; vm_compute; reflexivity. Qed.

Example null_rules_nonvacuous :
  (* hypotheses of null_equals_only_null / null_before_every_value /
     values_compare_underlying hold on these instances *)
  let d := builtin PFloat in
  has_value d (td_null d) = false /\ has_value d f32_one = true /\
  has_value d f32_ninf = true /\
  opt_eq d (td_null d) f32_one = false /\ opt_eq d (td_null d) f32_nan2 = true /\
  Pre20.all d (td_null d) f32_ninf = Some (cmp6_of_ord Less) /\
  Cxx20.all d f32_ninf f32_one = Some (cmp6_of_ord (spec_val_cmp PFloat f32_ninf f32_one)).
Proof. intros d. repeat apply conj; vm_compute; reflexivity. Qed.

Example legacy_same_on_integers_nonvacuous :
  let d := builtin PInt16 in
  kind (td_prim d) = KInt I16 /\ pvalid PInt16 (-32768) = true /\ pvalid PInt16 7 = true /\
  Legacy.Pre20.all d (-32768) 7 = Pre20.all d (-32768) 7 /\
  Pre20.all d (-32768) 7 = Some (cmp6_of_ord Less).
Proof. intros d. repeat apply conj; vm_compute; reflexivity. Qed.
