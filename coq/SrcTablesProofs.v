(* SrcTablesProofs.v — the properties' statements about the table-like parts of
   the code, proved about SrcTables.v, which harness/srctables.py REGENERATES
   from /repo's current sources on every run (types_compiler.hpp built_in_*
   maps, utils.hpp type maps and size table, the validator's size table, the C++
   keyword list, the SBEPP_BUILT_IN_IMPL invocations of sbepp.hpp).  The proofs
   evaluate the tables (one case per primitive type, the keyword list as a
   whole); only that the default literals denote the built-in values comes from
   OptLitProofs.defaults_table.  A changed table entry makes the corresponding
   theorem fail to check. *)
From Coq Require Import ZArith List String Bool Ascii.
From Sbepp Require Import CInt Bytes Fp Optional OptLit Rules SrcTables.
From Sbepp Require OptLitProofs.
Import ListNotations.
Import IEEE.
Import Opt.
Local Open Scope string_scope.

Definition prim_name (p : prim) : string :=
  match p with
  | PChar => "char" | PInt8 => "int8" | PInt16 => "int16" | PInt32 => "int32" | PInt64 => "int64"
  | PUint8 => "uint8" | PUint16 => "uint16" | PUint32 => "uint32" | PUint64 => "uint64"
  | PFloat => "float" | PDouble => "double"
  end.

Fixpoint lookup {A} (k : string) (l : list (string * A)) : option A :=
  match l with
  | [] => None
  | (k', v) :: r => if String.eqb k k' then Some v else lookup k r
  end.

Definition src_table (w : Lit.which) : list (string * string) :=
  match w with
  | Lit.WMin => src_min_values
  | Lit.WMax => src_max_values
  | Lit.WNull => src_null_values
  end.

(* the C++ type sbeppc uses for a primitive type *)
Definition cpp_type_name (p : prim) : string :=
  match p with
  | PChar => "char" | PFloat => "float" | PDouble => "double"
  | _ => "::std::" ++ prim_name p ++ "_t"
  end.

Definition prim_bytes (p : prim) : Z :=
  match p with
  | PChar | PInt8 | PUint8 => 1
  | PInt16 | PUint16 => 2
  | PInt32 | PUint32 | PFloat => 4
  | PInt64 | PUint64 | PDouble => 8
  end.

(* value of a SBEPP_BUILT_IN_IMPL argument: integer limits through CInt,
   floating-point limits as bit patterns (Fp.v) *)
Definition bty_int (t : bty) : option ity :=
  match t with
  | BI8 => Some I8 | BU8 => Some U8 | BI16 => Some I16 | BU16 => Some U16
  | BI32 => Some I32 | BU32 => Some U32 | BI64 => Some I64 | BU64 => Some U64
  | BF32 | BF64 => None
  end.

Fixpoint beval (e : bexpr) : option Z :=
  match e with
  | BLit z => Some z
  | BPlus e n => option_map (fun v => v + n)%Z (beval e)
  | BMinus e n => option_map (fun v => v - n)%Z (beval e)
  | BLim t l =>
    match bty_int t, l with
    | Some i, BMin => Some (tmin i)
    | Some i, BLowest => Some (tmin i)
    | Some i, BMax => Some (tmax i)
    | Some _, BQnan => None
    | None, BMin => Some (fl_min (match t with BF32 => F32 | _ => F64 end))
    | None, BMax => Some (fl_max (match t with BF32 => F32 | _ => F64 end))
    | None, BQnan => Some (fl_qnan (match t with BF32 => F32 | _ => F64 end))
    | None, BLowest => Some (fneg (match t with BF32 => F32 | _ => F64 end)
                                  (fl_max (match t with BF32 => F32 | _ => F64 end)))
    end
  end.

(* C16: the generator's default min/max/null literal of every primitive type,
   AS WRITTEN IN THE SOURCE NOW, denotes the value the built-in type exposes *)
Definition stmt_src_defaults_denote : Prop :=
  forall w p, exists s,
    lookup (prim_name p) (src_table w) = Some s /\
    Lit.denote p s = Lit.Ok (Lit.builtin_val w p).

(* ... and is the text the literal model (OptLit.v) works with *)
Definition stmt_src_defaults_are_model : Prop :=
  forall w p, lookup (prim_name p) (src_table w) = Some (Lit.default_lit w p).

(* every table has exactly the 11 primitive types as keys *)
Definition stmt_src_tables_keys : Prop :=
  forall l, In l [src_min_values; src_max_values; src_null_values; src_cpp_types;
                  src_required_wrappers; src_optional_wrappers] ->
    map fst l = map prim_name all_prims \/
    (List.length l = 11%nat /\ forall p, exists v, lookup (prim_name p) l = Some v).

(* C01/C02/C16: accessors of a field whose type is the built-in primitive p use
   the wrapper of THAT primitive *)
Definition stmt_src_wrappers : Prop :=
  forall p,
    lookup (prim_name p) src_required_wrappers = Some ("::sbepp::" ++ prim_name p ++ "_t") /\
    lookup (prim_name p) src_optional_wrappers = Some ("::sbepp::" ++ prim_name p ++ "_opt_t").

(* C01/C04: the size tables of the validator (layout) and of the generator
   (cursor offsets) agree with each other and with the encoding width *)
Definition stmt_src_sizes : Prop :=
  forall p,
    lookup (prim_name p) src_cpp_types = Some (cpp_type_name p) /\
    lookup (prim_name p) src_prim_sizes = Some (prim_bytes p) /\
    lookup (cpp_type_name p) src_underlying_sizes = Some (prim_bytes p).

(* C08: the keyword list of the validator is the one the rules model uses *)
Definition stmt_src_keywords : Prop :=
  map Rules.lit src_keywords = Rules.cpp_keywords.

(* C16: the built-in types of the runtime header expose the SBE defaults *)
Definition stmt_src_builtins : Prop :=
  forall p, exists ty mn mx nl,
    lookup (prim_name p) (map (fun x => let '(n, t, a, b, c) := x in (n, (t, a, b, c))) src_builtins)
    = Some (ty, mn, mx, nl) /\
    ("::" ++ ty = cpp_type_name p \/ ty = cpp_type_name p) /\
    beval mn = Some (builtin_min p) /\
    beval mx = Some (builtin_max p) /\
    beval nl = Some (builtin_null p).

Theorem src_defaults_are_model : stmt_src_defaults_are_model.
Proof. intros w p. destruct w, p; reflexivity. Qed.

Theorem src_defaults_denote : stmt_src_defaults_denote.
Proof.
  intros w p. exists (Lit.default_lit w p).
  split; [apply src_defaults_are_model | apply OptLitProofs.defaults_table].
Qed.

Theorem src_wrappers : stmt_src_wrappers.
Proof. intros p. destruct p; split; reflexivity. Qed.

Theorem src_sizes : stmt_src_sizes.
Proof. intros p. destruct p; repeat split; reflexivity. Qed.

Theorem src_tables_keys : stmt_src_tables_keys.
Proof.
  intros l Hl. left. cbn [In] in Hl.
  repeat (destruct Hl as [<-|Hl]; [vm_compute; reflexivity|]). contradiction.
Qed.

(* [Rules.lit] goes through unary numbers; evaluating the binary character
   codes instead is what keeps checking this list cheap *)
Lemma lit_binary s :
  Rules.lit s = map (fun c => Z.of_N (N_of_ascii c)) (list_ascii_of_string s).
Proof. apply map_ext. intros c. apply N_nat_Z. Qed.

Theorem src_keywords : stmt_src_keywords.
Proof.
  unfold stmt_src_keywords. rewrite (map_ext _ _ lit_binary). vm_compute. reflexivity.
Qed.

Theorem src_builtins_ok : stmt_src_builtins.
Proof.
  (* the entry is read off the table first; the type name is written with or
     without the leading "::" *)
  intros p. destruct p; do 4 eexists; (split; [reflexivity|]);
    repeat split; try reflexivity; ((left; reflexivity) || (right; reflexivity)).
Qed.

Print Assumptions src_defaults_denote.
Print Assumptions src_defaults_are_model.
Print Assumptions src_wrappers.
Print Assumptions src_sizes.
Print Assumptions src_tables_keys.
Print Assumptions src_keywords.
Print Assumptions src_builtins_ok.
