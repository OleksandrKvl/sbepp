(* CompileProofs.v — proofs of the statements of CompileSpec.v: every schema
   the layout model accepts compiles to tables satisfying the hypotheses of the
   runtime theorems. *)
From Coq Require Import ZArith List Bool Lia.
From Sbepp Require Import CInt Bytes Msg Layout Wire MsgSpec LayoutProofs
  Cursor CursorSpec Checked ScriptSpec Compile CompileSpec.
Import ListNotations.
Local Open Scope Z_scope.

Scheme slevel_mut := Induction for slevel Sort Prop
with sgroups_mut := Induction for sgroups Sort Prop.
Combined Scheme slevel_sgroups_ind from slevel_mut, sgroups_mut.

Lemma prim_ity_spec p t : prim_ity p = Some t ->
  is_signed t = false /\ tbytes t = Z.of_nat (prim_size p).
Proof. destruct p; cbn; intros [= <-]; split; reflexivity. Qed.

(* the anonymous [fix dl] of [compile_level], named *)
Definition dl_types : list prim -> option (list ity) :=
  fix dl (ds : list prim) : option (list ity) :=
    match ds with
    | [] => Some []
    | p :: r => match prim_ity p, dl r with
                | Some t, Some ts => Some (t :: ts)
                | _, _ => None
                end
    end.

Lemma dl_types_unsigned : forall ds cds,
  dl_types ds = Some cds -> Forall (fun t => is_signed t = false) cds.
Proof.
  induction ds as [|p r IH]; intros cds H; cbn [dl_types] in H.
  - injection H as <-. constructor.
  - destruct (prim_ity p) as [t|] eqn:Ep; [|discriminate]. fold dl_types in H.
    destruct (dl_types r) as [ts|]; [|discriminate]. injection H as <-.
    constructor; [apply (prim_ity_spec _ _ Ep)|apply IH; reflexivity].
Qed.

Lemma nth_member_off_inv ms k o t :
  nth_member_off ms k = Some (o, t) ->
  exists offs m, member_offsets ms 0 = Some offs /\ nth_error ms k = Some m /\
    nth_error offs k = Some (Some o) /\ type_size (sm_type m) = Some (tbytes t) /\
    is_signed t = false.
Proof.
  unfold nth_member_off.
  destruct (member_offsets ms 0) as [offs|]; [|discriminate].
  destruct (nth_error ms k) as [m|]; [|discriminate].
  destruct (nth_error offs k) as [[o'|]|] eqn:Eo; try discriminate.
  destruct (sm_type m) as [p|p n|ms'] eqn:Et; cbn [scalar_ity]; try discriminate.
  destruct (prim_ity p) as [t'|] eqn:Ep; [|discriminate]. intros [= <- <-].
  apply prim_ity_spec in Ep. destruct Ep as [Hu Hb].
  exists offs, m. rewrite Et, Hb. repeat split; trivial.
Qed.

(* a member the runtime reads: unsigned, inside the composite *)
Lemma nth_member_off_inside ms k o t sz :
  stype_ok (TComposite ms) -> type_size (TComposite ms) = Some sz ->
  nth_member_off ms k = Some (o, t) ->
  is_signed t = false /\ 0 <= o /\ o + tbytes t <= sz.
Proof.
  intros Hok Hs H. apply nth_member_off_inv in H. destruct H as (offs & m & Hm & Hn & Ho & Et & Hu).
  split; [exact Hu|]. apply (proj2 (member_offsets_in_order ms offs sz Hok Hm Hs) _ _ _ _ Ho Hn Et).
Qed.

(* two different members the runtime reads do not overlap *)
Lemma nth_member_off_disjoint ms sz i j oi ti oj tj :
  stype_ok (TComposite ms) -> type_size (TComposite ms) = Some sz -> i <> j ->
  nth_member_off ms i = Some (oi, ti) -> nth_member_off ms j = Some (oj, tj) ->
  oi + tbytes ti <= oj \/ oj + tbytes tj <= oi.
Proof.
  intros Hok Hs Hne Hi Hj.
  apply nth_member_off_inv in Hi. destruct Hi as (offs & mi & Hm & Hni & Hoi & Eti & _).
  apply nth_member_off_inv in Hj. destruct Hj as (offs' & mj & Hm' & Hnj & Hoj & Etj & _).
  rewrite Hm in Hm'. injection Hm' as <-.
  pose proof (member_offsets_sep ms 0 offs sz Hm Hs (members_nonneg _ Hok)) as Hsep.
  destruct (Nat.lt_ge_cases i j); [left|right]; eapply Hsep; try eassumption; lia.
Qed.

Theorem compile_fills_inside : stmt_compile_fills_inside.
Proof.
  intros ms fills. induction fills as [|[k v] rest IH]; intros cf sz Hok Hs H;
    cbn [compile_fills] in H.
  - injection H as <-. split; [exact I|constructor].
  - destruct (nth_member_off ms k) as [[o t]|] eqn:En; [|discriminate].
    destruct (compile_fills ms rest) as [r|]; [|discriminate]. injection H as <-.
    destruct (IH _ _ Hok Hs eq_refl) as [IH1 IH2].
    destruct (nth_member_off_inside _ _ _ _ _ Hok Hs En) as (Hu & Ho & Hle).
    cbn [fills_inside]. split; [tauto|]. constructor; assumption.
Qed.
Print Assumptions compile_fills_inside.

Theorem compile_dim_wf : stmt_compile_dim_wf.
Proof.
  intros d cd [Hok Hne] H. unfold compile_dim in H.
  destruct (type_size (TComposite (sd_members d))) as [sz|] eqn:Hs; [|discriminate].
  destruct (nth_member_off (sd_members d) (sd_bl_idx d)) as [[blo blt]|] eqn:Hb; [|discriminate].
  destruct (nth_member_off (sd_members d) (sd_n_idx d)) as [[no nt]|] eqn:Hn; [|discriminate].
  destruct (compile_fills (sd_members d) (sd_fills d)); [|discriminate]. injection H as <-.
  destruct (nth_member_off_inside _ _ _ _ _ Hok Hs Hb) as (Hub & Hb0 & Hb1).
  destruct (nth_member_off_inside _ _ _ _ _ Hok Hs Hn) as (Hun & Hn0 & Hn1).
  pose proof (nth_member_off_disjoint _ _ _ _ _ _ _ _ Hok Hs Hne Hb Hn) as Hd.
  pose proof (type_size_nonneg _ _ Hok Hs) as Hsz.
  unfold wf_dim, is_unsigned_ity. cbn [d_size d_bl_off d_bl_t d_n_off d_n_t].
  repeat split; assumption.
Qed.
Print Assumptions compile_dim_wf.

(* the accessor list built from [cursor_fields] satisfies [accs_ok] against
   the field list built from [layout_fields] *)
Lemma accs_ok_compile : forall fs hdr cur fl e cfl,
  Forall sfield_ok fs ->
  layout_fields fs cur = Some (fl, e) -> cursor_fields fs hdr cur = Some cfl ->
  accs_ok hdr cur fl
    (map (fun p => cacc_of (fst p) (snd p)) (combine cfl (nonconst_views fs))).
Proof.
  induction fs as [|f rest IH]; intros hdr cur fl e cfl Hok Hl Hc;
    cbn [layout_fields] in Hl; cbn [cursor_fields] in Hc.
  - injection Hl as <- _. injection Hc as <-. exact I.
  - inversion Hok as [|? ? Hf Hrest]; subst.
    unfold nonconst_views. cbn [filter]. fold (nonconst_views rest).
    destruct (type_size (sf_type f)) as [sz|] eqn:Ets; [|discriminate].
    destruct (sf_const f); cbn [negb map]; [eapply IH; eassumption|].
    destruct (place (sf_off f) cur sz) as [[off cur']|] eqn:Ep; [|discriminate].
    destruct (layout_fields rest cur') as [[fl' e']|] eqn:El; [|discriminate].
    destruct (cursor_fields rest hdr cur') as [cfl'|] eqn:Ecf; [|discriminate].
    injection Hl as <- _. injection Hc as <-.
    apply place_some in Ep. destruct Ep as (_ & Hle & ->).
    assert (Hsz : 0 <= sz) by (eapply type_size_nonneg; [apply Hf|exact Ets]).
    cbn [combine map fst snd accs_ok cacc_of ca_rel ca_abs ca_size ca_last
         c_rel c_abs c_size c_last f_off f_size].
    repeat split; try lia; [eapply layout_all_const|eapply IH]; eassumption.
Qed.

Lemma fields_in_order_nonneg : forall fl cur, 0 <= cur -> fields_in_order cur fl ->
  Forall (fun f => 0 <= f_off f /\ 0 <= f_size f) fl.
Proof.
  induction fl as [|f r IH]; intros cur Hcur H; constructor; cbn [fields_in_order] in H;
    [|apply (IH (f_off f + f_size f))]; intuition lia.
Qed.

(* what a successful [compile_level] says about its result and about
   [compile_clevel] on the same schema level *)
Definition compiled_level (l : slevel) (lv : level) (minbl : Z) : Prop :=
  (forall hdr, exists cl, compile_clevel l hdr = Some cl) /\
  (slevel_ok l ->
   (forall hdr cl, compile_clevel l hdr = Some cl -> wf_clevel hdr lv cl) /\
   wf_table_level lv /\ 0 <= minbl /\
   Forall (fun f => 0 <= f_off f /\ f_off f + f_size f <= minbl) (level_fields lv)).

Definition compiled_groups (gs : sgroups) (cgs : groups) : Prop :=
  (exists ccs, compile_cgroups gs = Some ccs) /\
  (sgroups_ok gs ->
   (forall ccs, compile_cgroups gs = Some ccs -> wf_cgroups cgs ccs) /\ wf_table_groups cgs).

Lemma block_length_ge explicit minimal b :
  block_length explicit minimal = Some b -> minimal <= b.
Proof. intros H. apply block_length_covers in H. tauto. Qed.

Lemma compile_level_all :
  (forall l lv minbl, compile_level l = Some (lv, minbl) -> compiled_level l lv minbl) /\
  (forall gs cgs, compile_groups gs = Some cgs -> compiled_groups gs cgs).
Proof.
  apply slevel_sgroups_ind.
  - intros fs gs IHgs ds lv minbl H. cbn [compile_level] in H.
    destruct (layout_fields fs 0) as [[fl e]|] eqn:Hl; [|discriminate].
    destruct (compile_groups gs) as [cgs|]; [|discriminate].
    destruct (_ ds) as [cds|] eqn:Hd; [|discriminate]. injection H as <- <-.
    destruct (IHgs cgs eq_refl) as [[ccs Hcc] IHok].
    split; [intros hdr|intros [Hfs Hgs]; destruct (IHok Hgs) as [IHc IHt]];
      cbn [compile_clevel]; rewrite Hcc.
    + destruct (cursor_offsets_agree fs hdr 0 fl e Hl) as (cfl & -> & _). eexists; reflexivity.
    + destruct (layout_no_overlap fs 0 fl e Hfs (Z.le_refl 0) Hl) as (Hord & Hmin & Hin).
      split; [|split; [|split; [exact Hmin|apply Forall_forall, Hin]]].
      * intros hdr cl Hc. destruct (cursor_fields fs hdr 0) as [cfl|] eqn:Hcf; [|discriminate].
        injection Hc as <-. split; [eapply accs_ok_compile; eassumption|apply IHc, Hcc].
      * split; [apply (fields_in_order_nonneg fl 0 (Z.le_refl 0) Hord)|].
        split; [apply (dl_types_unsigned ds), Hd|exact IHt].
  - intros cgs [= <-]. split; [exists CGNil; reflexivity|]. intros _. split; [|exact I].
    intros ccs [= <-]. exact I.
  - intros d bl l IHl rest IHrest cgs H. cbn [compile_groups] in H.
    destruct (compile_dim d) as [cd|] eqn:Hd; [|discriminate].
    destruct (compile_level l) as [[lv minbl]|]; [|discriminate].
    destruct (compile_groups rest) as [crest|]; [|discriminate].
    destruct (block_length bl minbl) as [cbl|] eqn:Hb; [|discriminate]. injection H as <-.
    destruct (IHl lv minbl eq_refl) as [Ha IHlok].
    destruct (IHrest crest eq_refl) as [[cr Hcr] IHrok].
    destruct (Ha 0) as [a Ha0].
    split; [|intros (Hokd & _ & Hokl & Hokr)]; cbn [compile_cgroups]; rewrite Ha0, Hcr;
      [eexists; reflexivity|].
    destruct (IHlok Hokl) as (IHc & IHt & Hmin & _). destruct (IHrok Hokr) as [IHrc IHrt].
    apply block_length_ge in Hb. split.
    + intros ccs [= <-]. split; [apply IHc, Ha0|apply IHrc, Hcr].
    + split; [apply (compile_dim_wf d cd Hokd Hd)|]. split; [lia|]. split; assumption.
Qed.

Theorem compile_clevel_total : stmt_compile_clevel_total.
Proof.
  intros l hdr lv minbl H. apply (proj1 compile_level_all) in H. apply H.
Qed.
Print Assumptions compile_clevel_total.

Theorem compile_clevel_wf : stmt_compile_clevel_wf.
Proof.
  intros l hdr lv minbl cl Hok H. apply (proj1 compile_level_all) in H.
  apply H, Hok.
Qed.
Print Assumptions compile_clevel_wf.

Theorem compile_level_table_wf : stmt_compile_level_table_wf.
Proof.
  intros l lv minbl Hok H. apply (proj1 compile_level_all) in H.
  apply H, Hok.
Qed.
Print Assumptions compile_level_table_wf.

Theorem compile_message_header_ok : stmt_compile_message_header_ok.
Proof.
  intros sm m Hok Hlok _ H. unfold compile_message in H.
  destruct (type_size (TComposite (sm_header sm))) as [hsz|] eqn:Es; [|discriminate].
  destruct (nth_member_off (sm_header sm) (sm_bl_idx sm)) as [[blo blt]|] eqn:Eb; [|discriminate].
  destruct (compile_level (sm_level sm)) as [[cl minbl]|] eqn:El; [|discriminate].
  destruct (compile_fills (sm_header sm) (sm_fills sm)); [|discriminate].
  destruct (block_length (sm_block_length sm) minbl) as [cbl|] eqn:Ebl; [|discriminate].
  injection H as <-. cbn [m_bl_t m_bl_off m_hdr_size m_cbl m_level].
  destruct (nth_member_off_inside _ _ _ _ _ Hok Es Eb) as (Hu & H0 & H1).
  destruct (compile_level_table_wf _ _ _ Hlok El) as (Hw & Hmin & Hin).
  apply block_length_ge in Ebl.
  repeat split; try assumption; try lia.
  eapply Forall_impl; [|exact Hin]. cbn beta. intros f Hf. lia.
Qed.
Print Assumptions compile_message_header_ok.
