(* BitsetProofs.v — C15 for the model in Bitset.v: on the set types (uint8_t .. uint64_t) the setter changes
   exactly bit n, the getter reads exactly bit n, a value is determined by its bits, and visit_set reports
   for every listed choice index its bit ([visit_set_spec]). *)
From Coq Require Import ZArith Bool Lia List.
From Sbepp Require Import CInt CIntFacts Bitset.
Local Open Scope Z_scope.

Definition is_set_type (T : ity) : bool :=
  match T with U8 | U16 | U32 | U64 => true | _ => false end.

Lemma clear_or_bits bits n b m : 0 <= n -> 0 <= m ->
  Z.testbit (Z.lor (Z.land bits (Z.lnot (2 ^ n))) (b2z b * 2 ^ n)) m
  = if m =? n then b else Z.testbit bits m.
Proof.
  intros Hn Hm. replace (b2z b * 2 ^ n) with (if b then 2 ^ n else 0) by (destruct b; cbn [b2z]; lia).
  rewrite Z.lor_spec, Z.land_spec, Z.lnot_spec by lia.
  destruct b; rewrite ?Z.bits_0, !Z.pow2_bits_eqb, (Z.eqb_sym n m) by lia;
    destruct (m =? n), (Z.testbit bits m); reflexivity.
Qed.

Lemma clear_or_range bits n b w : 0 <= n < w -> 0 <= bits < 2 ^ w ->
  0 <= Z.lor (Z.land bits (Z.lnot (2 ^ n))) (b2z b * 2 ^ n) < 2 ^ w.
Proof.
  intros Hn Hb.
  assert (0 <= 2 ^ n) by (apply Z.pow_nonneg; lia).
  assert (H0 : 0 <= Z.lor (Z.land bits (Z.lnot (2 ^ n))) (b2z b * 2 ^ n)).
  { apply Z.lor_nonneg; split; [apply Z.land_nonneg; left; lia|].
    destruct b; cbn [b2z]; lia. }
  split; [exact H0|].
  apply bound_of_bits; [lia|exact H0|].
  intros m Hm. rewrite clear_or_bits by lia.
  destruct (Z.eqb_spec m n); [lia|]. apply (testbit_above bits w); lia.
Qed.

Lemma spec_set_bits bits n b m : 0 <= n -> 0 <= m ->
  Z.testbit (spec_set bits n b) m = if m =? n then b else Z.testbit bits m.
Proof.
  intros Hn Hm. unfold spec_set. rewrite (Z.eqb_sym m n). destruct b.
  - rewrite Z.setbit_eqb by lia. destruct (n =? m); reflexivity.
  - rewrite Z.clearbit_eqb by lia. destruct (n =? m); cbn [negb];
    rewrite ?andb_false_r, ?andb_true_r; reflexivity.
Qed.

Lemma clear_or_is_spec bits n b : 0 <= n ->
  Z.lor (Z.land bits (Z.lnot (2 ^ n))) (b2z b * 2 ^ n) = spec_set bits n b.
Proof.
  intros Hn. apply Z.bits_inj'. intros m Hm.
  rewrite clear_or_bits, spec_set_bits by lia. reflexivity.
Qed.

Lemma land_pow2_testbit bits n : 0 <= n ->
  negb (Z.land bits (2 ^ n) =? 0) = Z.testbit bits n.
Proof.
  intros Hn. destruct (Z.testbit bits n) eqn:E.
  - destruct (Z.eqb_spec (Z.land bits (2 ^ n)) 0) as [H0|]; [|reflexivity].
    assert (Z.testbit (Z.land bits (2 ^ n)) n = false) by (rewrite H0; apply Z.bits_0).
    rewrite Z.land_spec, Z.pow2_bits_true, E in H by lia. discriminate.
  - replace (Z.land bits (2 ^ n)) with 0; [reflexivity|].
    symmetry. apply Z.bits_inj'. intros m Hm. rewrite Z.bits_0, Z.land_spec.
    rewrite Z.pow2_bits_eqb by lia. destruct (Z.eqb_spec n m) as [<-|];
      [rewrite E; reflexivity|apply andb_false_r].
Qed.

Lemma pow2_small n w : 0 <= n < w -> 0 < 2 ^ n <= 2 ^ (w - 1).
Proof.
  intros H. split; [apply Z.pow_pos_nonneg; lia|].
  apply Z.pow_le_mono_r; lia.
Qed.

Lemma set_type_unsigned T : is_set_type T = true -> is_signed T = false.
Proof. destruct T; try discriminate; reflexivity. Qed.

Lemma in_range_set T z : is_set_type T = true ->
  (in_range T z = true <-> 0 <= z < 2 ^ CInt.bits T).
Proof. intros HT. apply unsigned_range, set_type_unsigned, HT. Qed.

Lemma set_type_tmax_promote T : is_set_type T = true -> 2 ^ CInt.bits T - 1 <= tmax (promote T).
Proof. destruct T; try discriminate; intros _; unfold tmax; cbn [is_signed CInt.bits promote]; lia. Qed.

Lemma wrap_promote_id T z : is_set_type T = true ->
  0 <= z < 2 ^ CInt.bits T -> wrap (promote T) z = z.
Proof. intros HT Hz. apply wrap_id, in_range_promote, in_range_set; assumption. Qed.

Theorem get_bit_is_testbit T bits n :
  is_set_type T = true -> 0 <= n < CInt.bits T -> in_range T bits = true ->
  get_bit T bits n = Some (Z.testbit bits n).
Proof.
  intros HT Hn Hb. apply (in_range_set T _ HT) in Hb.
  pose proof (bits_promote T) as Hbits. pose proof (set_type_tmax_promote T HT) as Hpmax.
  assert (Hp : 0 < 2 ^ n < 2 ^ CInt.bits T)
    by (split; [apply Z.pow_pos_nonneg|apply Z.pow_lt_mono_r]; lia).
  pose proof (land_bound bits (2 ^ n) (CInt.bits T)) as Hl.
  unfold get_bit. rewrite cshl_small by lia. cbn [obind]. rewrite Z.mul_1_l.
  unfold cand, cbit. rewrite uac_promote.
  rewrite (wrap_promote_id T bits), (wrap_promote_id T (2 ^ n)), wrap_promote_id by (assumption || lia).
  rewrite land_pow2_testbit by lia. reflexivity.
Qed.

Lemma set_bit_correct T bits n b :
  is_set_type T = true -> 0 <= n < CInt.bits T -> in_range T bits = true ->
  set_bit T bits n b = Some (spec_set bits n b) /\
  in_range T (spec_set bits n b) = true.
Proof.
  intros HT Hn Hb. apply (in_range_set T _ HT) in Hb.
  pose proof (bits_promote T) as Hbits. pose proof (set_type_tmax_promote T HT) as Hpmax.
  assert (Hp : 0 < 2 ^ n < 2 ^ CInt.bits T)
    by (split; [apply Z.pow_pos_nonneg|apply Z.pow_lt_mono_r]; lia).
  assert (Hbp : 2 ^ CInt.bits T <= 2 ^ CInt.bits (promote T)) by (apply Z.pow_le_mono_r; lia).
  assert (Hs : 0 <= b2z b /\ 0 <= b2z b * 2 ^ n < 2 ^ CInt.bits T) by (destruct b; cbn [b2z]; lia).
  pose proof (land_bound bits (Z.lnot (2 ^ n)) (CInt.bits T)) as Hx.
  pose proof (clear_or_range bits n b (CInt.bits T) Hn Hb) as Hr.
  rewrite <- clear_or_is_spec by lia. split; [|apply in_range_set; assumption].
  unfold set_bit. rewrite cshl_small by lia. cbn [obind].
  rewrite cshl_small by lia. cbn [obind]. rewrite Z.mul_1_l.
  unfold cnot, cand, cor, cbit, ccast. rewrite promote_idem, uac_promote, uac_same, promote_idem, !wrap_wrap.
  (* the mask ~(1 << n) is evaluated in the promoted type *)
  rewrite (wrap_promote_id T bits), land_wrap_r by (assumption || lia).
  rewrite (wrap_promote_id T (Z.land _ _)), (wrap_promote_id T (_ * _)), wrap_promote_id
    by (assumption || lia).
  f_equal. apply wrap_id, in_range_set; assumption.
Qed.

(* bit independence, the form the property is stated in *)
Theorem bit_independent T bits n b :
  is_set_type T = true -> 0 <= n < CInt.bits T -> in_range T bits = true ->
  exists bits', set_bit T bits n b = Some bits' /\ in_range T bits' = true /\
    forall m, 0 <= m < CInt.bits T ->
      get_bit T bits' m = Some (if m =? n then b else Z.testbit bits m).
Proof.
  intros HT Hn Hb. destruct (set_bit_correct T bits n b HT Hn Hb) as [Hs Hr].
  exists (spec_set bits n b). repeat split; [exact Hs|exact Hr|].
  intros m Hm. rewrite get_bit_is_testbit, spec_set_bits by (assumption || lia). reflexivity.
Qed.

(* raw value / equality: two in-range values are equal iff all choices agree *)
Theorem raw_value_determined_by_bits T x y :
  is_set_type T = true -> in_range T x = true -> in_range T y = true ->
  (forall n, 0 <= n < CInt.bits T -> get_bit T x n = get_bit T y n) -> x = y.
Proof.
  intros HT Hx Hy H.
  pose proof (proj1 (in_range_set T x HT) Hx). pose proof (proj1 (in_range_set T y HT) Hy).
  apply Z.bits_inj'. intros m Hm.
  destruct (Z_lt_le_dec m (CInt.bits T)).
  - specialize (H m ltac:(lia)). rewrite !get_bit_is_testbit in H by (assumption || lia).
    injection H. auto.
  - rewrite (testbit_above x (CInt.bits T)), (testbit_above y (CInt.bits T)) by lia.
    reflexivity.
Qed.

(* visiting a set reports every declared choice with its bit, in order *)
Theorem visit_set_spec T bits idx :
  is_set_type T = true -> in_range T bits = true ->
  Forall (fun n => 0 <= n < CInt.bits T) idx ->
  visit_set T bits idx = map (fun n => Some (Z.testbit bits n)) idx.
Proof.
  intros HT Hb Hall. unfold visit_set. apply map_ext_in. intros n Hin.
  rewrite Forall_forall in Hall. apply get_bit_is_testbit; auto.
Qed.

(* the code before the fix violates the property for 64-bit sets *)
Example legacy_get_bit_refuted :
  Legacy.get_bit U64 (2 ^ 40) 31 = Some true /\ Z.testbit (2 ^ 40) 31 = false.
Proof. vm_compute. split; reflexivity. Qed.

Example legacy_set_bit_refuted :
  Legacy.set_bit U64 0 31 true = Some 18446744071562067968 /\
  Legacy.set_bit U64 0 32 true = None.
Proof. vm_compute. split; reflexivity. Qed.

Example bit_independent_nonvacuous :
  is_set_type U64 = true /\ 0 <= 63 < CInt.bits U64 /\
  in_range U64 (2 ^ 64 - 1) = true /\
  set_bit U64 (2 ^ 64 - 1) 63 false = Some (2 ^ 63 - 1).
Proof. vm_compute. repeat split; intro; discriminate. Qed.
