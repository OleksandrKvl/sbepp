(* ValidateExamples.v — concrete schemas: non-vacuity instances of the C08
   theorems (validator) and of the C09 theorems (lookups, include loading,
   the whole run), and the refutation of the validator before the repair. *)
From Coq Require Import ZArith List Bool String.
From Sbepp Require Import Bytes Rules Validate ValidateProofs Pipeline PipelineProofs.
Import ListNotations.
Local Open Scope string_scope.
Local Open Scope Z_scope.

Definition mk_type (n p : str) : element_def :=
  EType {| t_name := n; t_prim := p; t_presence := PRequired; t_length := 1; t_offset := None;
           t_min := None; t_max := None; t_null := None; t_const := None; t_vref := None |}.

Definition ex_header : element_def :=
  EComposite (lit "messageHeader") None
    [mk_type (lit "blockLength") k_uint16; mk_type (lit "templateId") k_uint16;
     mk_type (lit "schemaId") k_uint16; mk_type (lit "version") k_uint16].

Definition ex_point : element_def :=
  EComposite (lit "Point") None
    [mk_type (lit "x") k_int32;
     EType {| t_name := lit "y"; t_prim := k_int32; t_presence := PRequired; t_length := 1; t_offset := Some 8;
              t_min := None; t_max := None; t_null := None; t_const := None; t_vref := None |};
     ERef (lit "tag") (lit "Tag") None].

Definition ex_tag : element_def := mk_type (lit "Tag") k_uint8.

Definition mk_field (n ty : str) (o : option Z) : field_def :=
  {| f_name := n; f_type := ty; f_offset := o; f_presence := PRequired; f_vref := None |}.

Definition ex_message (fs : list field_def) (bl : option Z) : message_def :=
  {| m_name := lit "M"; m_id := 1; m_bl := bl; m_fields := fs; m_groups := []; m_data := [] |}.

Definition ex_schema (fs : list field_def) (bl : option Z) : schema_def :=
  {| sc_name := lit "p"; sc_header := lit "messageHeader"; sc_types := [ex_header; ex_point; ex_tag];
     sc_messages := [ex_message fs bl] |}.

(* a valid schema: composite with a gap, field with custom offset, explicit blockLength *)
Definition ex_good : schema_def :=
  ex_schema [mk_field (lit "a") k_uint32 None; mk_field (lit "p") (lit "point") (Some 6);
             mk_field (lit "b") k_uint16 None] (Some 32).

Example validate_iff_rules_nonvacuous :
  (exists st, validate ex_good = VOk st) /\ rules_ok ex_good = true.
Proof. split; [eexists|]; vm_compute; reflexivity. Qed.

Example accepted_no_overlap_nonvacuous :
  rules_ok ex_good = true /\
  In (EComposite (lit "Point") None
        [mk_type (lit "x") k_int32;
         EType {| t_name := lit "y"; t_prim := k_int32; t_presence := PRequired; t_length := 1; t_offset := Some 8;
                  t_min := None; t_max := None; t_null := None; t_const := None; t_vref := None |};
         ERef (lit "tag") (lit "Tag") None]) (all_elements (sc_types ex_good)) /\
  In (m_fields (ex_message [mk_field (lit "a") k_uint32 None; mk_field (lit "p") (lit "point") (Some 6);
                            mk_field (lit "b") k_uint16 None] (Some 32)), Some 32) (schema_levels ex_good).
Proof.
  split; [exact (proj2 validate_iff_rules_nonvacuous)|].
  split; [do 5 right; left; reflexivity | left; reflexivity].
Qed.

(* offset below the minimum: rejected, with the rule class *)
Example rejects_offset_below_minimum :
  validate (ex_schema [mk_field (lit "a") k_uint32 None; mk_field (lit "b") k_uint16 (Some 3)] None)
  = VErr OffsetTooSmall.
Proof. vm_compute. reflexivity. Qed.

Example rejects_cycle :
  validate {| sc_name := lit "p"; sc_header := lit "messageHeader";
              sc_types := [ex_header; EComposite (lit "A") None [ERef (lit "b") (lit "B") None];
                           EComposite (lit "B") None [ERef (lit "a") (lit "a") None]];
              sc_messages := [] |} = VErr CyclicReference.
Proof. vm_compute. reflexivity. Qed.

(* THE DEFECT of the code before the repair: the first field ends exactly at
   2^64, the running offset wraps to 0 and the other fields are laid over the
   start of the block; the computed blockLength is 8 although field a lies at
   offset 2^64-4 *)
Definition ex_wrap : schema_def :=
  ex_schema [mk_field (lit "a") k_uint32 (Some 18446744073709551612);
             mk_field (lit "b") k_uint32 (Some 0); mk_field (lit "c") k_uint32 (Some 4)] None.

Example legacy_accepts_overlap_refuted :
  Legacy.accepts ex_wrap = true /\ rules_ok ex_wrap = false /\
  validate ex_wrap = VErr OffsetOverflow.
Proof. vm_compute. repeat split; reflexivity. Qed.

Example validated_no_crash_nonvacuous :
  exists st, validate ex_good = VOk st /\ gen_lookups ex_good = VOk tt.
Proof.
  destruct (proj1 validate_iff_rules_nonvacuous) as [st H].
  exists st. split; [exact H | vm_compute; reflexivity].
Qed.

(* the Crash branches are live: without validation the lookups do crash *)
Example gen_lookups_crash_reachable :
  gen_lookups (ex_schema [mk_field (lit "a") (lit "NoSuchType") None] None) = VCrash MapAt /\
  gen_lookups {| sc_name := lit "p"; sc_header := lit "Tag"; sc_types := [ex_tag]; sc_messages := [] |}
  = VCrash BadVariant.
Proof. split; vm_compute; reflexivity. Qed.

Definition ex_files : file_map :=
  [(lit "main.xml", []); (lit "a.xml", [lit "b.xml"]); (lit "b.xml", [lit "a.xml"]); (lit "t.xml", [])].

Example include_terminates_nonvacuous :
  load_main true ex_files (lit "main.xml") [lit "t.xml"] = Loaded /\
  load_main true ex_files (lit "main.xml") [lit "a.xml"] = LoadErr /\
  load_main true ex_files (lit "main.xml") [lit "nope.xml"] = LoadErr.
Proof. vm_compute. repeat split; reflexivity. Qed.

(* the code before the repair on the same cycle: the recursion never ends *)
Example legacy_include_cycle_refuted :
  load_main false ex_files (lit "main.xml") [lit "a.xml"] = LoadDiverge /\
  load false ex_files 2000 [] (lit "a.xml") = LoadDiverge.
Proof.
  split; [vm_compute; reflexivity|].
  (* a.xml and b.xml include each other: no fuel is enough *)
  apply (legacy_cycle ex_files (fun p => p = lit "a.xml" \/ p = lit "b.xml")); [|left; reflexivity].
  intros p [-> | ->]; [exists (lit "b.xml"), [] | exists (lit "a.xml"), []]; split; auto; reflexivity.
Qed.

Example run_total_nonvacuous :
  run true {| in_argv_ok := true; in_files := ex_files; in_main := lit "main.xml"; in_main_includes := [lit "t.xml"];
              in_xml_ok := true; in_schema := ex_good; in_output_ok := true |} = Exit0 /\
  run true {| in_argv_ok := true; in_files := ex_files; in_main := lit "main.xml"; in_main_includes := [lit "t.xml"];
              in_xml_ok := true; in_schema := ex_wrap; in_output_ok := true |} = ExitErr /\
  run false {| in_argv_ok := true; in_files := ex_files; in_main := lit "main.xml"; in_main_includes := [lit "a.xml"];
               in_xml_ok := true; in_schema := ex_good; in_output_ok := true |} = Diverge.
Proof. vm_compute. repeat split; reflexivity. Qed.
