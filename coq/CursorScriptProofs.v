(* CursorScriptProofs.v — sequences of cursor calls on the members of one level
   view, executed with the real oracles (CursorScript.v), on encoded images. *)
From Coq Require Import ZArith List Bool Lia.
From Sbepp Require Import CInt CIntFacts Bytes BytesFacts Msg Layout Wire MsgSpec MsgProofs
  Cursor CursorSpec CursorProofs CursorScript.
Import ListNotations.
Local Open Scope Z_scope.

(* a level instance [v] of level [l] whose image sits at offset [len pre] of
   the buffer [b]; [lv] is the view the library has of it ([hdr] = size of the
   message header for the root level, 0 for entries); [al] the generated
   cursor accessors of its fields *)
Definition embedded (be : bool) (l : level) (v : vlevel) (hdr : Z) (al : list cacc)
  (pre post b : list Z) (fuel : nat) (lv : lview) : Prop :=
  wf_level be l v /\
  accs_ok hdr 0 (level_fields l) al /\
  (* top conjunct of CursorSpec.fields_fit: field bytes inside the wire block *)
  Forall (fun f => 0 <= f_off f /\ f_off f + f_size f <= len (vblock v)) (level_fields l) /\
  b = pre ++ enc_level be l v ++ post /\
  len b < 2 ^ 64 /\ len b <= Z.of_nat fuel /\
  lv_level lv = len pre /\ lv_start lv + hdr = len pre /\ 0 <= lv_start lv /\ 0 <= hdr /\
  lv_bl lv = len (vblock v) /\ lv_end lv = len b.

(* bytes of data members 0..k-1 *)
Fixpoint datas_prefix_len (ds : list ity) (vds : list (list Z)) (k : nat) : Z :=
  match k, ds, vds with
  | S k', t :: ds', p :: vds' => tbytes t + len p + datas_prefix_len ds' vds' k'
  | _, _, _ => 0
  end.

(* end of the previous field (block-relative); 0 for the first field *)
Definition field_req (fs : list fld) (k : nat) : Z :=
  match k with
  | O => 0
  | S k' => match nth_error fs k' with Some f => f_off f + f_size f | None => 0 end
  end.

Definition fld_off (fs : list fld) (k : nat) : Z :=
  match nth_error fs k with Some f => f_off f | None => 0 end.
Definition fld_size (fs : list fld) (k : nat) : Z :=
  match nth_error fs k with Some f => f_size f | None => 0 end.

(* dimension size / whole image length of group k; total size of data k *)
Definition dim_size_nth (gs : groups) (k : nat) : Z :=
  match groups_nth gs k with Some (d, _, _) => d_size d | None => 0 end.
Definition group_len_nth (be : bool) (gs : groups) (vgs : vgroups) (k : nat) : Z :=
  match groups_nth gs k, vgroups_nth vgs k with
  | Some (d, cbl, sub), Some (bg, es) =>
    len (enc_groups be (GCons d cbl sub GNil) (VGCons bg es VGNil))
  | _, _ => 0
  end.
Definition data_len_nth (ds : list ity) (vds : list (list Z)) (k : nat) : Z :=
  match nth_error ds k, nth_error vds k with
  | Some t, Some p => tbytes t + len p
  | _, _ => 0
  end.

(* where the image puts the member; [base] = offset of the level's block *)
Definition img_addr (be : bool) (l : level) (v : vlevel) (base : Z) (o : lop) : Z :=
  match o with
  | LF k _ => base + fld_off (level_fields l) k
  | LG k _ => base + len (vblock v) + groups_prefix_len be (level_groups l) (vlevel_groups v) k
  | LD k _ => base + len (vblock v) + len (enc_groups be (level_groups l) (vlevel_groups v))
              + datas_prefix_len (level_datas l) (vlevel_datas v) k
  end.

(* the position the member requires *)
Definition img_req (be : bool) (l : level) (v : vlevel) (base : Z) (o : lop) : Z :=
  match o with
  | LF k _ => base + field_req (level_fields l) k
  | _ => img_addr be l v base o
  end.

(* the documented cursor after the call *)
Definition img_after (be : bool) (l : level) (v : vlevel) (base : Z) (o : lop) (c : Z) : Z :=
  let a := img_addr be l v base o in
  match o with
  | LF k w =>
    match w with
    | WPlain | WSkip | WInit =>
      match nth_error (level_fields l) (S k) with
      | None => base + len (vblock v)                 (* last field: block end *)
      | Some _ => a + fld_size (level_fields l) k
      end
    | WDontMove => c
    | WInitDontMove => base + field_req (level_fields l) k
    end
  | LG k w =>
    match w with
    | WPlain | WInit => a + dim_size_nth (level_groups l) k
    | WSkip => a + group_len_nth be (level_groups l) (vlevel_groups v) k
    | WDontMove => if is_first l o then a else c
    | WInitDontMove => a
    end
  | LD k w =>
    match w with
    | WPlain | WSkip | WInit => a + data_len_nth (level_datas l) (vlevel_datas v) k
    | WDontMove => if is_first l o then a else c
    | WInitDontMove => a
    end
  end.

Definition legal (be : bool) (b : list Z) (fuel : nat) (l : level) (al : list cacc)
  (lv : lview) (ops : list lop) (c : Z) : Prop :=
  legalb be b fuel l al lv ops c = true.

Definition stmt_run_lop_image : Prop :=
  forall be l v hdr al pre post b fuel lv o c,
    embedded be l v hdr al pre post b fuel lv ->
    in_range l al o = true ->
    ra_addr be b fuel l al lv o = Some (img_addr be l v (len pre) o) /\
    req_pos be b fuel l al lv o
      = (if is_first l o then None else Some (img_req be l v (len pre) o)) /\
    doc_after be b fuel l al lv o c = Some (img_after be l v (len pre) o c) /\
    (is_init (lop_wrapper o) = true \/ is_first l o = true \/
     req_pos be b fuel l al lv o = Some c ->
     run_lop be b fuel l al lv o c
     = Some (COk (img_addr be l v (len pre) o) (img_after be l v (len pre) o c))) /\
    (is_init (lop_wrapper o) = false -> is_first l o = false ->
     req_pos be b fuel l al lv o <> Some c ->
     run_lop be b fuel l al lv o c = Some CAssert).


(* chain lemmas: the documented cursor after a call that moves past member
   k is the position the next member in schema order requires *)

(* field k -> field k+1 (from accs_ok alone, on any buffer) *)
Definition stmt_chain_field_field : Prop :=
  forall be b fuel l al lv hdr k w w' c,
    accs_ok hdr 0 (level_fields l) al ->
    in_range l al (LF (S k) w') = true -> is_moving w = true ->
    doc_after be b fuel l al lv (LF k w) c = req_pos be b fuel l al lv (LF (S k) w').

(* last field -> block end ... *)
Definition stmt_chain_last_field : Prop :=
  forall be b fuel l al lv hdr k w c,
    accs_ok hdr 0 (level_fields l) al ->
    in_range l al (LF k w) = true -> in_range l al (LF (S k) w) = false ->
    is_moving w = true ->
    doc_after be b fuel l al lv (LF k w) c = Some (block_end lv).

(* ... which is where the random-access accessor finds the first
   variable-length member (which requires no position anyway) *)
Definition stmt_first_member_at_block_end : Prop :=
  forall be b fuel l al lv o,
    is_first l o = true -> in_range l al o = true ->
    ra_addr be b fuel l al lv o = Some (block_end lv).

(* group k (skip) -> group k+1 *)
Definition stmt_chain_group_group : Prop :=
  forall be l v hdr al pre post b fuel lv k w' c,
    embedded be l v hdr al pre post b fuel lv ->
    in_range l al (LG (S k) w') = true ->
    doc_after be b fuel l al lv (LG k WSkip) c = req_pos be b fuel l al lv (LG (S k) w').

(* last group (skip) -> data 0 *)
Definition stmt_chain_last_group_data : Prop :=
  forall be l v hdr al pre post b fuel lv k w' c,
    embedded be l v hdr al pre post b fuel lv ->
    in_range l al (LG k WSkip) = true -> in_range l al (LG (S k) WSkip) = false ->
    in_range l al (LD 0 w') = true ->
    doc_after be b fuel l al lv (LG k WSkip) c = req_pos be b fuel l al lv (LD 0 w').

(* data k (plain / skip / init) -> data k+1 *)
Definition stmt_chain_data_data : Prop :=
  forall be l v hdr al pre post b fuel lv k w w' c,
    embedded be l v hdr al pre post b fuel lv ->
    in_range l al (LD (S k) w') = true -> is_moving w = true ->
    doc_after be b fuel l al lv (LD k w) c = req_pos be b fuel l al lv (LD (S k) w').

(* a plain / init call on a group with numInGroup = 0 lands where skip lands,
   i.e. (by the two statements above) on the next member *)
Definition stmt_chain_empty_group : Prop :=
  forall be l v hdr al pre post b fuel lv k w bg c,
    embedded be l v hdr al pre post b fuel lv ->
    in_range l al (LG k w) = true ->
    vgroups_nth (vlevel_groups v) k = Some (bg, VENil) ->
    w = WPlain \/ w = WInit ->
    doc_after be b fuel l al lv (LG k w) c = doc_after be b fuel l al lv (LG k WSkip) c.

(* the last variable-length member -> end of the level's image *)
Definition stmt_chain_end_of_level : Prop :=
  forall be l v hdr al pre post b fuel lv k w c,
    embedded be l v hdr al pre post b fuel lv ->
    (in_range l al (LD k w) = true -> in_range l al (LD (S k) w) = false ->
     is_moving w = true ->
     doc_after be b fuel l al lv (LD k w) c = Some (len pre + len (enc_level be l v))) /\
    (level_datas l = [] ->
     in_range l al (LG k WSkip) = true -> in_range l al (LG (S k) WSkip) = false ->
     doc_after be b fuel l al lv (LG k WSkip) c = Some (len pre + len (enc_level be l v))).

(* sequences.  [legal]: every index exists and every call is init-type, or
   on the first variable-length member, or made with the cursor (= the
   documented cursor after the calls before it / the start cursor) at the
   position the member requires. *)
Definition stmt_legal_cons : Prop :=
  forall be l v hdr al pre post b fuel lv o ops c,
    embedded be l v hdr al pre post b fuel lv ->
    (legal be b fuel l al lv (o :: ops) c <->
     in_range l al o = true /\
     (is_init (lop_wrapper o) = true \/ is_first l o = true \/
      req_pos be b fuel l al lv o = Some c) /\
     legal be b fuel l al lv ops (img_after be l v (len pre) o c)).

(* what a legal script returns, in terms of the value tree only *)
Fixpoint img_script (be : bool) (l : level) (v : vlevel) (base : Z) (ops : list lop) (c : Z)
  : list (lop * cres Z) :=
  match ops with
  | [] => []
  | o :: rest =>
    (o, COk (img_addr be l v base o) (img_after be l v base o c))
    :: img_script be l v base rest (img_after be l v base o c)
  end.

Definition stmt_run_script_legal : Prop :=
  forall be l v hdr al pre post b fuel lv ops c,
    embedded be l v hdr al pre post b fuel lv ->
    legal be b fuel l al lv ops c ->
    run_script be b fuel l al lv ops c = spec_script be b fuel l al lv ops c /\
    spec_script be b fuel l al lv ops c = img_script be l v (len pre) ops c /\
    map fst (run_script be b fuel l al lv ops c) = ops.

(* misuse after a legal prefix is reported, whatever follows *)
Definition stmt_run_script_misuse : Prop :=
  forall be l v hdr al pre post b fuel lv ops o rest c,
    embedded be l v hdr al pre post b fuel lv ->
    legal be b fuel l al lv ops c ->
    in_range l al o = true ->
    is_init (lop_wrapper o) = false -> is_first l o = false ->
    req_pos be b fuel l al lv o <> Some (end_cursor be b fuel l al lv ops c) ->
    run_script be b fuel l al lv (ops ++ o :: rest) c
    = spec_script be b fuel l al lv ops c ++ [(o, CAssert)].


(* the "cur" command: the view built for the level at any path of an encoded
   message is an embedding, so the statements above about [embedded] apply to it *)
Definition stmt_embedded_any_path : Prop :=
  forall be m hdrbg v pre post path l' v' off al,
    let b := pre ++ enc_message be m hdrbg v ++ post in
    wf_message be m hdrbg v -> len b < 2 ^ 64 ->
    vresolve be path (m_level m) v = Some (l', v', off) ->
    accs_ok (path_hdr m path) 0 (level_fields l') al ->
    Forall (fun f => 0 <= f_off f /\ f_off f + f_size f <= len (vblock v')) (level_fields l') ->
    exists pre' post',
      msg_resolve be b m (len pre) path = Some (len pre', len (vblock v'), l') /\
      len pre' = len pre + m_hdr_size m + off /\
      embedded be l' v' (path_hdr m path) al pre' post' b (default_fuel b)
               (path_lview b (len pre) path (len pre') (len (vblock v'))).

Definition stmt_run_cur_legal : Prop :=
  forall be m hdrbg v pre post path l' v' off al start ops,
    let b := pre ++ enc_message be m hdrbg v ++ post in
    let pos := len pre + m_hdr_size m + off in
    let c := match start with None => pos | Some o => len pre + o end in
    wf_message be m hdrbg v -> len b < 2 ^ 64 ->
    vresolve be path (m_level m) v = Some (l', v', off) ->
    accs_ok (path_hdr m path) 0 (level_fields l') al ->
    Forall (fun f => 0 <= f_off f /\ f_off f + f_size f <= len (vblock v')) (level_fields l') ->
    legal be b (default_fuel b) l' al (path_lview b (len pre) path pos (len (vblock v'))) ops c ->
    run_cur be b m (len pre) path al start ops = Some (img_script be l' v' pos ops c).


(* a second, independent formulation of how [run_lop] selects the oracles of
   [cur_group] / [cur_data]: the dimension, compiled blockLength and entry level
   of group k come from the result of nth_group_pos when that succeeds and from
   the schema otherwise *)
Definition glue_group (be : bool) (b : list Z) (fuel : nat) (gs : groups) (lv : lview)
  (k : nat) (w : wrapper) (c : Z) : option (cres Z) :=
  let p := match nth_group_pos be b fuel gs k (lv_level lv + lv_bl lv) with
           | Some (gp, _, _, _) => Some gp
           | None => None
           end in
  match nth_group_pos be b fuel gs k (lv_level lv + lv_bl lv) with
  | Some (_, d, cbl, sub) =>
    let gsz at_ := match groups_end be b fuel (GCons d cbl sub GNil) at_ with
                   | Some e => Some (e - at_)
                   | None => None
                   end in
    Some (cur_group w (Nat.eqb k 0) lv p (d_size d) gsz c)
  | None =>
    match groups_nth gs k with
    | Some (d, cbl, sub) =>
      let gsz at_ := match groups_end be b fuel (GCons d cbl sub GNil) at_ with
                     | Some e => Some (e - at_)
                     | None => None
                     end in
      Some (cur_group w (Nat.eqb k 0) lv None (d_size d) gsz c)
    | None => None
    end
  end.

Definition glue_data (be : bool) (b : list Z) (fuel : nat) (gs : groups) (ds : list ity)
  (lv : lview) (k : nat) (w : wrapper) (c : Z) : option (cres Z) :=
  let first := Nat.eqb k 0 && groups_empty gs in
  match nth_error ds k with
  | None => None
  | Some t =>
    let p := match groups_end be b fuel gs (lv_level lv + lv_bl lv) with
             | Some ge => match nth_data_pos be b ds k ge with
                          | Some (dp, _) => Some dp
                          | None => None
                          end
             | None => None
             end in
    Some (cur_data w first lv p (data_size_at be b t) c)
  end.

Definition stmt_run_lop_is_glue : Prop :=
  forall be b fuel l al lv k w c,
    run_lop be b fuel l al lv (LG k w) c = glue_group be b fuel (level_groups l) lv k w c /\
    run_lop be b fuel l al lv (LD k w) c
    = glue_data be b fuel (level_groups l) (level_datas l) lv k w c.


(* what the chain lemmas add up to: the schema-order script -- every field with
   the plain cursor, every group skipped, every data with the plain cursor --
   started at the block is legal (so by [stmt_run_script_legal] every call returns
   the random-access address) and, unless the level has no member at all, leaves
   the cursor at the end of the level's image *)
Fixpoint groups_count (gs : groups) : nat :=
  match gs with GNil => O | GCons _ _ _ r => S (groups_count r) end.

Definition schema_script (l : level) (al : list cacc) : list lop :=
  map (fun k => LF k WPlain) (seq 0 (length al))
  ++ map (fun k => LG k WSkip) (seq 0 (groups_count (level_groups l)))
  ++ map (fun k => LD k WPlain) (seq 0 (length (level_datas l))).

Definition stmt_schema_script_legal : Prop :=
  forall be l v hdr al pre post b fuel lv,
    embedded be l v hdr al pre post b fuel lv ->
    legal be b fuel l al lv (schema_script l al) (len pre) /\
    (schema_script l al <> [] ->
     end_cursor be b fuel l al lv (schema_script l al) (len pre)
     = len pre + len (enc_level be l v)).

Lemma op_ok_iff be b fuel l al lv o c :
  op_ok be b fuel l al lv o c = true <->
  (is_init (lop_wrapper o) = true \/ is_first l o = true \/
   req_pos be b fuel l al lv o = Some c).
Proof.
  unfold op_ok. rewrite !orb_true_iff, <- or_assoc.
  destruct (req_pos be b fuel l al lv o) as [p|].
  - rewrite Z.eqb_eq. split; (intros [H|H]; [left; exact H|right; congruence]).
  - split; (intros [H|H]; [left; exact H|discriminate]).
Qed.

Lemma accs_ok_length hdr : forall fs al pos, accs_ok hdr pos fs al -> length fs = length al.
Proof.
  induction fs as [|f fs IH]; intros [|a al] pos H; try contradiction; [reflexivity|].
  cbn [length]. f_equal. exact (IH al _ (proj2 (proj2 (proj2 (proj2 (proj2 (proj2 H))))))).
Qed.

Lemma accs_ok_nth hdr : forall fs al pos k a,
  accs_ok hdr pos fs al -> 0 <= pos -> nth_error al k = Some a ->
  exists f, nth_error fs k = Some f /\
    ca_abs a = f_off f + hdr /\ ca_size a = f_size f /\ 0 <= f_size f /\ 0 <= ca_rel a /\
    0 <= f_off f - ca_rel a /\
    f_off f - ca_rel a = (match k with O => pos | S _ => field_req fs k end) /\
    ca_last a = (match nth_error fs (S k) with None => true | Some _ => false end).
Proof.
  induction fs as [|f fs IH]; intros [|a0 al] pos k a Hacc Hpos Hnth; try contradiction;
    [destruct k; discriminate|].
  destruct Hacc as (Hrel & Hrel0 & Habs & Hsz & Hsz0 & Hlast & Hrest).
  destruct k as [|k]; cbn [nth_error] in Hnth.
  - injection Hnth as <-. exists f. cbn [nth_error]. repeat split; try assumption; try lia.
    rewrite Hlast. destruct fs; reflexivity.
  - destruct (IH al _ k a Hrest ltac:(lia) Hnth) as (f2 & H1 & H2 & H3 & H4 & H5 & H6 & H7 & H8).
    exists f2. cbn [nth_error]. repeat split; try assumption.
    rewrite H7. destruct k; reflexivity.
Qed.

Lemma groups_nth_count gs : forall k,
  (k < groups_count gs)%nat <-> groups_nth gs k <> None.
Proof.
  induction gs as [|d cbl l0 rest IH]; intros k; cbn [groups_count].
  - split; [lia|]. destruct k; intros H; now contradiction H.
  - destruct k as [|k]; cbn [groups_nth]; [split; [discriminate|lia]|].
    rewrite <- IH. lia.
Qed.

Lemma groups_prefix_len_S be : forall k gs vgs,
  groups_prefix_len be gs vgs (S k)
  = groups_prefix_len be gs vgs k + group_len_nth be gs vgs k.
Proof.
  unfold group_len_nth.
  induction k as [|k IH]; intros [|d cbl l rest] [|bg es vrest];
    cbn [groups_prefix_len groups_nth vgroups_nth]; try reflexivity.
  - destruct rest, vrest; cbn [groups_prefix_len]; lia.
  - destruct (groups_nth rest k) as [[[? ?] ?]|]; reflexivity.
  - rewrite <- Z.add_assoc, <- IH. reflexivity.
Qed.

Lemma groups_prefix_len_all be : forall k gs vgs,
  groups_nth gs k = None -> groups_prefix_len be gs vgs k = len (enc_groups be gs vgs).
Proof.
  induction k as [|k IH]; intros [|d cbl l rest] [|bg es vrest] Hg; try discriminate;
    try reflexivity.
  cbn [groups_prefix_len]. rewrite (IH rest vrest Hg), enc_groups_single, enc_groups_cons.
  rewrite !len_app. lia.
Qed.

Lemma in_range_lt l al o :
  in_range l al o = true <->
  match o with
  | LF k _ => (k < length al)%nat
  | LG k _ => (k < groups_count (level_groups l))%nat
  | LD k _ => (k < length (level_datas l))%nat
  end.
Proof.
  destruct o as [k w|k w|k w]; cbn [in_range].
  - rewrite <- nth_error_Some. destruct (nth_error al k); split; congruence.
  - rewrite groups_nth_count. destruct (groups_nth (level_groups l) k); split; congruence.
  - rewrite <- nth_error_Some. destruct (nth_error (level_datas l) k); split; congruence.
Qed.

Lemma groups_nth_count_end gs : groups_nth gs (groups_count gs) = None.
Proof. induction gs as [|d cbl l rest IH]; [reflexivity|exact IH]. Qed.

Lemma datas_prefix_len_0 ds vds : datas_prefix_len ds vds 0 = 0.
Proof. destruct ds, vds; reflexivity. Qed.

Lemma datas_prefix_len_S : forall k ds vds,
  datas_prefix_len ds vds (S k) = datas_prefix_len ds vds k + data_len_nth ds vds k.
Proof.
  unfold data_len_nth.
  induction k as [|k IH]; intros [|t ds] [|p vds]; cbn [datas_prefix_len nth_error];
    try reflexivity.
  - destruct ds, vds; cbn [datas_prefix_len]; lia.
  - destruct (nth_error ds k); reflexivity.
  - rewrite <- !Z.add_assoc, <- IH. reflexivity.
Qed.

Lemma datas_prefix_len_all be : forall k ds vds,
  nth_error ds k = None -> datas_prefix_len ds vds k = len (enc_datas be ds vds).
Proof.
  induction k as [|k IH]; intros [|t ds] [|p vds] Hn; try discriminate; try reflexivity.
  cbn [datas_prefix_len enc_datas]. rewrite (IH ds vds Hn), !len_app, len_enc_tw. lia.
Qed.

Lemma img_after_skip_group be l v base k w' c :
  img_after be l v base (LG k WSkip) c = img_addr be l v base (LG (S k) w').
Proof. cbn [img_after img_addr]. rewrite groups_prefix_len_S. lia. Qed.

Lemma img_after_data be l v base k w w' c : is_moving w = true ->
  img_after be l v base (LD k w) c = img_addr be l v base (LD (S k) w').
Proof.
  intros Hmv. cbn [img_after img_addr]. rewrite datas_prefix_len_S.
  destruct w; try discriminate Hmv; lia.
Qed.

Lemma img_addr_groups_end be l v base k w w' : groups_nth (level_groups l) k = None ->
  img_addr be l v base (LG k w) = img_addr be l v base (LD 0 w').
Proof.
  intros Hn. cbn [img_addr]. rewrite (groups_prefix_len_all be k _ _ Hn), datas_prefix_len_0. lia.
Qed.

Lemma img_addr_datas_end be l v base k w : nth_error (level_datas l) k = None ->
  img_addr be l v base (LD k w) = base + len (enc_level be l v).
Proof.
  intros Hn. cbn [img_addr]. rewrite (datas_prefix_len_all be k _ _ Hn).
  destruct l, v. rewrite enc_level_eq, !len_app. cbn. lia.
Qed.

Lemma nth_data_full be b : forall ds vds k t p pos,
  datas_fit ds vds -> nth_error ds k = Some t -> nth_error vds k = Some p ->
  seg b pos (enc_datas be ds vds) ->
  nth_data_pos be b ds k pos = Some (pos + datas_prefix_len ds vds k, t) /\
  rd be b (pos + datas_prefix_len ds vds k) t = Some (len p).
Proof.
  induction ds as [|t0 ds IH]; intros [|p0 vds] k t p pos Hfit Hnt Hnp Hs;
    try contradiction; [destruct k; discriminate|].
  destruct Hfit as (_ & Hf & Hrest). cbn [enc_datas] in Hs.
  apply seg_app in Hs as [Hn Hs]. apply seg_app in Hs as [_ Hs]. rewrite len_enc_tw in Hs.
  pose proof (seg_rd_enc be b pos t0 _ Hn Hf) as Hrd.
  destruct k as [|k]; cbn [nth_error] in Hnt, Hnp; cbn [nth_data_pos datas_prefix_len].
  - injection Hnt as <-. injection Hnp as <-. rewrite Z.add_0_r. split; [reflexivity|exact Hrd].
  - rewrite Hrd. cbn [obind]. destruct (IH vds k t p _ Hrest Hnt Hnp Hs) as [H1 H2].
    rewrite !Z.add_assoc. split; assumption.
Qed.

Lemma img_script_ops be l v base : forall ops c, map fst (img_script be l v base ops c) = ops.
Proof.
  induction ops as [|o ops IH]; intros c; cbn [img_script map fst]; [|rewrite IH]; reflexivity.
Qed.

Theorem first_member_at_block_end : stmt_first_member_at_block_end.
Proof.
  unfold stmt_first_member_at_block_end. intros be b fuel l al lv o Hf Hin.
  destruct l as [fs gs ds]. destruct o as [k w|k w|k w]; cbn [is_first level_groups] in Hf.
  - discriminate.
  - apply Nat.eqb_eq in Hf. subst k. cbn [in_range level_groups] in Hin.
    destruct gs as [|d cbl sub rest]; [discriminate|]. reflexivity.
  - apply andb_true_iff in Hf. destruct Hf as [Hk Hg]. apply Nat.eqb_eq in Hk. subst k.
    destruct gs; [|discriminate]. cbn [in_range level_datas] in Hin.
    destruct ds as [|t ds]; [discriminate|]. reflexivity.
Qed.
Print Assumptions first_member_at_block_end.

(* "var": a variable-length member, i.e. a group or a data member; for these the
   required position is the address itself *)
Lemma admissible_var (i f : bool) (a c : Z) :
  i = true \/ f = true \/ (if f then None else Some a) = Some c -> f = false -> i = false -> c = a.
Proof. intros [H|[H|H]] -> ->; [discriminate..|congruence]. Qed.

(* what [stmt_run_lop_image] says of one call made with the cursor at [c], given the
   position [req] it requires, its address [addr] and the documented cursor [after] *)
Definition lop_spec (be : bool) (b : list Z) (fuel : nat) (l : level) (al : list cacc)
  (lv : lview) (o : lop) (c req addr after : Z) : Prop :=
  req_pos be b fuel l al lv o = (if is_first l o then None else Some req) /\
  (is_init (lop_wrapper o) = true \/ is_first l o = true \/
   req_pos be b fuel l al lv o = Some c ->
   run_lop be b fuel l al lv o c = Some (COk addr after)) /\
  (is_init (lop_wrapper o) = false -> is_first l o = false ->
   req_pos be b fuel l al lv o <> Some c -> run_lop be b fuel l al lv o c = Some CAssert).

Lemma run_lop_var be b fuel l al lv o c a c' :
  match o with LF _ _ => False | _ => True end -> in_range l al o = true ->
  ra_addr be b fuel l al lv o = Some a -> doc_after be b fuel l al lv o c = Some c' ->
  lop_spec be b fuel l al lv o c a a c'.
Proof.
  unfold lop_spec. intros Hnf Hin Hra Hda.
  assert (Hbe : is_first l o = true -> block_end lv = a).
  { intros Hf. pose proof (first_member_at_block_end be b fuel l al lv o Hf Hin) as E.
    rewrite Hra in E. now injection E as ->. }
  assert (Hrq : req_pos be b fuel l al lv o = if is_first l o then None else Some a).
  { destruct o; [contradiction| |]; cbn [req_pos]; rewrite Hra; reflexivity. }
  rewrite Hrq. split; [reflexivity|].
  destruct o as [k w|k w|k w]; [contradiction| |];
    cbn [in_range run_lop doc_after lop_wrapper] in *; rewrite Hra in *; cbn [obind] in Hda.
  - destruct (groups_nth (level_groups l) k) as [[[d cbl] sub]|]; [|discriminate].
    change (Nat.eqb k 0) with (is_first l (LG k w)). split.
    + intros Hok. rewrite (cur_group_ok w _ lv a _ _ c Hbe (admissible_var _ _ _ _ Hok)).
      destruct w; try (injection Hda as <-; reflexivity).
      destruct (group_size_at be b fuel d cbl sub a); [injection Hda as <-; reflexivity|discriminate].
    + intros Hw Hf Hne. rewrite Hf in *. f_equal. apply cur_group_misplaced_reported.
      * destruct w; try discriminate Hw; auto.
      * intros ->. now apply Hne.
  - destruct (nth_error (level_datas l) k) as [t|]; [|discriminate].
    change (Nat.eqb k 0 && groups_empty (level_groups l)) with (is_first l (LD k w)). split.
    + intros Hok. rewrite (cur_data_ok w _ lv a _ c Hbe (admissible_var _ _ _ _ Hok)).
      destruct w; try (injection Hda as <-; reflexivity);
        (destruct (data_size_at be b t a); [injection Hda as <-; reflexivity|discriminate]).
    + intros Hw Hf Hne. rewrite Hf in *. f_equal. apply cur_data_misplaced_reported.
      * destruct w; try discriminate Hw; auto.
      * intros ->. now apply Hne.
Qed.

Definition runs (be : bool) (b : list Z) (fuel : nat) (l : level) (al : list cacc) (lv : lview)
  (ops : list lop) (c e : Z) : Prop :=
  legal be b fuel l al lv ops c /\ end_cursor be b fuel l al lv ops c = e.

Lemma runs_app be b fuel l al lv : forall o1 o2 c c1 c2,
  runs be b fuel l al lv o1 c c1 -> runs be b fuel l al lv o2 c1 c2 ->
  runs be b fuel l al lv (o1 ++ o2) c c2.
Proof.
  unfold runs, legal.
  induction o1 as [|o o1 IH]; intros o2 c c1 c2 [L1 E1] H2; cbn [app legalb end_cursor] in *.
  - subst c1. exact H2.
  - destruct (doc_after be b fuel l al lv o c) as [c'|]; [|now rewrite andb_false_r in L1].
    apply andb_true_iff in L1. destruct L1 as [L0 L1].
    destruct (IH o2 c' c1 c2 (conj L1 E1) H2) as [L E]. split; [now rewrite L0, L|exact E].
Qed.

Section Embedded.
  Context {be : bool} {fs : list fld} {gs : groups} {ds : list ity}.
  Context {block : list Z} {vgs : vgroups} {vds : list (list Z)}.
  Context {hdr : Z} {al : list cacc} {pre post b : list Z} {fuel : nat} {lv : lview}.
  Notation l := (Level fs gs ds).
  Notation v := (VLevel block vgs vds).
  Context (Hemb : embedded be l v hdr al pre post b fuel lv).

  Lemma emb_wf : wf_groups be gs vgs /\ datas_fit ds vds.
  Proof. exact (proj1 Hemb). Qed.

  Lemma emb_fuel : len b <= Z.of_nat fuel.
  Proof. destruct Hemb as (_ & _ & _ & _ & _ & H & _). exact H. Qed.

  Lemma emb_seg : seg b (len pre) (enc_level be l v).
  Proof. destruct Hemb as (_ & _ & _ & Hb & _). exact (seg_pres _ _ _ _ Hb). Qed.

  Lemma emb_block_end : block_end lv = len pre + len block.
  Proof.
    destruct Hemb as (_ & _ & _ & _ & _ & _ & H1 & _ & _ & _ & H2 & _).
    unfold block_end. cbn [vblock] in H2. lia.
  Qed.

  Lemma emb_segs :
    seg b (len pre + len block) (enc_groups be gs vgs) /\
    seg b (len pre + len block + len (enc_groups be gs vgs)) (enc_datas be ds vds).
  Proof.
    exact (proj2 (level_image _ _ _ _ _ emb_seg)).
  Qed.

  Lemma emb_groups_end :
    groups_end be b fuel gs (block_end lv)
    = Some (len pre + len block + len (enc_groups be gs vgs)).
  Proof.
    rewrite emb_block_end.
    exact (groups_end_seg_b be gs vgs b _ fuel (proj1 emb_wf) emb_fuel (proj1 emb_segs)).
  Qed.

  Lemma field_img k a : nth_error al k = Some a ->
    exists f, nth_error fs k = Some f /\
      lv_start lv + ca_abs a = len pre + f_off f /\
      required_pos lv a = len pre + field_req fs k /\
      after_field lv a = (match nth_error fs (S k) with
                          | None => len pre + len block
                          | Some _ => len pre + f_off f + f_size f
                          end) /\
      forall w c, is_init w = true \/ c = required_pos lv a ->
        cur_field w lv a c
        = COk (lv_start lv + ca_abs a)
              (match w with
               | WPlain | WSkip | WInit => after_field lv a
               | WDontMove => c
               | WInitDontMove => required_pos lv a
               end).
  Proof.
    intros Ha. pose proof emb_block_end as Hbe.
    pose proof (seg_bounds _ _ _ (proj1 emb_segs)) as Hin.
    pose proof (len_nonneg (enc_groups be gs vgs)).
    destruct Hemb as (_ & Hacc & Hfit & Hb & Hlt & _ & Hlvl & Hst & Hst0 & Hhdr0 & Hbl & Hend).
    cbn [level_fields vblock] in *.
    destruct (accs_ok_nth hdr fs al 0 k a Hacc (Z.le_refl 0) Ha)
      as (f & Hf & Habs & Hsz & Hsz0 & Hrel0 & Hreq0 & Hreq & Hlast).
    assert (Hreq' : f_off f - ca_rel a = field_req fs k) by (destruct k; exact Hreq).
    rewrite Forall_forall in Hfit. destruct (Hfit f (nth_error_In _ _ Hf)) as [Hoff0 Hoff1].
    pose proof (len_nonneg pre) as Hp0.
    assert (Hrp : required_pos lv a = len pre + field_req fs k) by (unfold required_pos; lia).
    exists f. split; [exact Hf|]. split; [lia|]. split; [exact Hrp|]. split.
    - unfold after_field. rewrite Hlast. destruct (nth_error fs (S k)); lia.
    - intros w c Hok. apply cur_field_ok; [rewrite Hend; exact Hlt|rewrite Hsz; exact Hsz0|lia|].
      destruct (is_init w), Hok; (discriminate || lia).
  Qed.

  Lemma group_img k d cbl sub : groups_nth gs k = Some (d, cbl, sub) ->
    nth_group_pos be b fuel gs k (block_end lv)
    = Some (len pre + len block + groups_prefix_len be gs vgs k, d, cbl, sub) /\
    group_size_at be b fuel d cbl sub (len pre + len block + groups_prefix_len be gs vgs k)
    = Some (group_len_nth be gs vgs k).
  Proof.
    intros Hg. pose proof emb_fuel as Hfuel. destruct emb_wf as [Hwg _].
    destruct (wf_groups_nth be gs vgs k _ Hwg Hg) as [[bg es] Hv].
    destruct (nth_group_at be b fuel k gs vgs _ bg es d cbl sub Hwg Hfuel (proj1 emb_segs) Hv Hg)
      as (Hpos & Hw1 & Hs1).
    rewrite emb_block_end. split; [exact Hpos|].
    unfold group_size_at, group_len_nth.
    rewrite Hg, Hv, (groups_end_seg_b be _ _ b _ fuel Hw1 Hfuel Hs1).
    cbn [obind]. f_equal. lia.
  Qed.

  Lemma data_img k t : nth_error ds k = Some t ->
    nth_data_pos be b ds k (len pre + len block + len (enc_groups be gs vgs))
    = Some (len pre + len block + len (enc_groups be gs vgs) + datas_prefix_len ds vds k, t) /\
    data_size_at be b t
      (len pre + len block + len (enc_groups be gs vgs) + datas_prefix_len ds vds k)
    = Some (data_len_nth ds vds k).
  Proof.
    intros Ht. destruct emb_wf as [_ Hwd]. destruct (datas_fit_nth ds vds k t Hwd Ht) as [p Hp].
    destruct (nth_data_full be b ds vds k t p _ Hwd Ht Hp (proj2 emb_segs)) as [H1 H2].
    split; [exact H1|]. unfold data_size_at, data_len_nth. rewrite H2, Ht, Hp. reflexivity.
  Qed.

  Lemma ra_addr_img o : in_range l al o = true ->
    ra_addr be b fuel l al lv o = Some (img_addr be l v (len pre) o).
  Proof.
    destruct o as [k w|k w|k w];
      cbn [in_range ra_addr img_addr level_fields level_groups level_datas]; intros Hin.
    - destruct (nth_error al k) as [a|] eqn:Ha; [|discriminate].
      destruct (field_img k a Ha) as (f & Hf & Haddr & _). unfold fld_off.
      rewrite Hf. cbn [option_map]. f_equal. exact Haddr.
    - destruct (groups_nth gs k) as [[[d cbl] sub]|] eqn:Hg; [|discriminate].
      rewrite (proj1 (group_img k d cbl sub Hg)). reflexivity.
    - destruct (nth_error ds k) as [t|] eqn:Ht; [|discriminate].
      rewrite emb_groups_end. cbn [obind]. rewrite (proj1 (data_img k t Ht)). reflexivity.
  Qed.

  Lemma doc_after_img o c : in_range l al o = true ->
    doc_after be b fuel l al lv o c = Some (img_after be l v (len pre) o c).
  Proof.
    intros Hin. pose proof (ra_addr_img o Hin) as Hra.
    destruct o as [k w|k w|k w];
      cbn [in_range doc_after img_after img_addr level_fields level_groups level_datas
           vblock vlevel_groups vlevel_datas] in *;
      [|rewrite Hra; cbn [obind]..].
    - destruct (nth_error al k) as [a|] eqn:Ha; [|discriminate].
      destruct (field_img k a Ha) as (f & Hf & _ & Hrp & Haf & _).
      cbn [option_map]. unfold fld_off, fld_size.
      rewrite Hf, Hrp, Haf. destruct w; try reflexivity; destruct (nth_error fs (S k)); reflexivity.
    - destruct (groups_nth gs k) as [[[d cbl] sub]|] eqn:Hg; [|discriminate].
      unfold dim_size_nth. rewrite Hg, (proj2 (group_img k d cbl sub Hg)). destruct w; reflexivity.
    - destruct (nth_error ds k) as [t|] eqn:Ht; [|discriminate].
      rewrite (proj2 (data_img k t Ht)). destruct w; reflexivity.
  Qed.

  Lemma lop_img o c : in_range l al o = true ->
    lop_spec be b fuel l al lv o c (img_req be l v (len pre) o) (img_addr be l v (len pre) o)
      (img_after be l v (len pre) o c).
  Proof.
    intros Hin. pose proof (ra_addr_img o Hin) as Hra. pose proof (doc_after_img o c Hin) as Hda.
    destruct o as [k w|k w|k w];
      [unfold lop_spec|eapply run_lop_var; [exact I|exact Hin|exact Hra|exact Hda]..].
    cbn [in_range ra_addr doc_after req_pos run_lop is_first lop_wrapper img_req level_fields] in *.
    destruct (nth_error al k) as [a|] eqn:Ha; [|discriminate].
    destruct (field_img k a Ha) as (f & _ & _ & Hrp & _ & Hcur).
    cbn [option_map] in *. rewrite Hrp. split; [reflexivity|]. split.
    - intros Hok. rewrite Hcur; [congruence|].
      destruct Hok as [Hok|[Hok|Hok]]; [left; exact Hok|discriminate|right; congruence].
    - intros Hw _ Hne. f_equal. apply cur_field_misplaced_reported.
      + destruct w; try discriminate Hw; auto.
      + intros ->. apply Hne. now rewrite Hrp.
  Qed.

  Lemma req_pos_img o : in_range l al o = true -> is_first l o = false ->
    req_pos be b fuel l al lv o = Some (img_req be l v (len pre) o).
  Proof. intros Hin Hf. rewrite (proj1 (lop_img o 0 Hin)), Hf. reflexivity. Qed.

  Lemma legal_step o ops c :
    legal be b fuel l al lv (o :: ops) c <->
    in_range l al o = true /\
    (is_init (lop_wrapper o) = true \/ is_first l o = true \/
     req_pos be b fuel l al lv o = Some c) /\
    legal be b fuel l al lv ops (img_after be l v (len pre) o c).
  Proof.
    unfold legal. cbn [legalb]. rewrite !andb_true_iff, op_ok_iff, and_assoc.
    split; intros (H1 & H2 & H3); (split; [exact H1|]; split; [exact H2|]);
      rewrite (doc_after_img o c H1) in *; exact H3.
  Qed.

  Lemma end_cursor_cons o ops c : in_range l al o = true ->
    end_cursor be b fuel l al lv (o :: ops) c
    = end_cursor be b fuel l al lv ops (img_after be l v (len pre) o c).
  Proof. intros Hin. cbn [end_cursor]. rewrite (doc_after_img o c Hin). reflexivity. Qed.

  (* a legal prefix runs as documented; what follows it starts at its end cursor *)
  Lemma run_legal_prefix rest : forall ops c, legal be b fuel l al lv ops c ->
    run_script be b fuel l al lv (ops ++ rest) c
    = img_script be l v (len pre) ops c
      ++ run_script be b fuel l al lv rest (end_cursor be b fuel l al lv ops c) /\
    spec_script be b fuel l al lv ops c = img_script be l v (len pre) ops c.
  Proof.
    induction ops as [|o ops IH]; intros c Hl; [split; reflexivity|].
    apply legal_step in Hl. destruct Hl as (H1 & H2 & H3). destruct (IH _ H3) as [I1 I2].
    rewrite (end_cursor_cons _ _ _ H1). cbn [app run_script spec_script img_script].
    rewrite (proj1 (proj2 (lop_img o c H1)) H2), (ra_addr_img o H1), (doc_after_img o c H1), I1, I2.
    split; reflexivity.
  Qed.

  (* calls [mk k .. mk (k+n-1)], each requiring [pos i] (if anything) and leaving
     the cursor at [pos (i+1)] *)
  Lemma runs_seq (mk : nat -> lop) (pos : nat -> Z) : forall n k c,
    (forall i, (k <= i < k + n)%nat ->
       in_range l al (mk i) = true /\
       (is_first l (mk i) = true \/ img_req be l v (len pre) (mk i) = pos i) /\
       forall c', img_after be l v (len pre) (mk i) c' = pos (S i)) ->
    (n <> O -> is_first l (mk k) = true \/ c = pos k) ->
    runs be b fuel l al lv (map mk (seq k n)) c (if Nat.eqb n 0 then c else pos (k + n)%nat).
  Proof.
    induction n as [|n IH]; intros k c H Hc; [split; reflexivity|].
    destruct (H k ltac:(lia)) as (Hin & Hrq & Haf).
    destruct (IH (S k) (img_after be l v (len pre) (mk k) c)) as [IH1 IH2].
    { intros i Hi. apply H. lia. }
    { intros _. right. apply Haf. }
    cbn [seq map]. split.
    - apply legal_step. split; [exact Hin|]. split; [|exact IH1].
      destruct (is_first l (mk k)) eqn:Hf; [auto|]. right; right.
      rewrite (req_pos_img _ Hin Hf).
      destruct Hrq as [Hrq|Hrq], (Hc ltac:(discriminate)) as [Hc'|Hc']; try discriminate.
      congruence.
    - rewrite (end_cursor_cons _ _ _ Hin), IH2, Haf, Nat.add_succ_r.
      destruct n; cbn [Nat.eqb Nat.add]; [rewrite Nat.add_0_r|]; reflexivity.
  Qed.

  (* fields with the plain cursor, groups skipped, data with the plain cursor:
     field i requires the end of field i-1 and the last one leaves the block end;
     group / data i is required at its address, the first such member nowhere *)
  Lemma schema_script_img :
    legal be b fuel l al lv (schema_script l al) (len pre) /\
    (schema_script l al <> [] ->
     end_cursor be b fuel l al lv (schema_script l al) (len pre)
     = len pre + len (enc_level be l v)).
  Proof.
    pose proof (accs_ok_length hdr fs al 0 (proj1 (proj2 Hemb))) as Hlen.
    pose proof (img_addr_groups_end be l v (len pre) _ WSkip WPlain (groups_nth_count_end gs)) as HG.
    pose proof (img_addr_datas_end be l v (len pre) _ WPlain
                  (proj2 (nth_error_None ds _) (Nat.le_refl _))) as HD.
    enough (R : exists e, runs be b fuel l al lv (schema_script l al) (len pre) e /\
                          (schema_script l al <> [] -> e = len pre + len (enc_level be l v))).
    { destruct R as (e & [RL RE] & He). split; [exact RL|]. intros Hne. rewrite RE. exact (He Hne). }
    unfold schema_script. cbn [level_groups level_datas]. eexists. split.
    - eapply runs_app; [|eapply runs_app].
      + apply (runs_seq _ (fun i => match nth_error fs i with
                                    | Some _ => len pre + field_req fs i
                                    | None => len pre + len block
                                    end)).
        * intros i Hi.
          destruct (nth_error fs i) as [f|] eqn:Hf; [|apply nth_error_None in Hf; lia].
          split; [|split; [right; reflexivity|]].
          -- apply in_range_lt. lia.
          -- intros c'. cbn [img_after img_addr field_req level_fields vblock].
             unfold fld_off, fld_size. rewrite Hf. destruct (nth_error fs (S i)); [lia|reflexivity].
        * intros Hn. right. destruct (nth_error fs 0) eqn:E; [cbn [field_req]; lia|].
          apply nth_error_None in E. lia.
      + apply (runs_seq _ (fun i => img_addr be l v (len pre) (LG i WSkip)));
          [|left; reflexivity].
        intros i Hi. split; [|split; [right; reflexivity|]].
        * apply in_range_lt. cbn [level_groups]. lia.
        * intros c'. apply img_after_skip_group.
      + apply (runs_seq _ (fun i => img_addr be l v (len pre) (LD i WPlain))).
        * intros i Hi. split; [|split; [right; reflexivity|]].
          -- apply in_range_lt. cbn [level_datas]. lia.
          -- intros c'. now apply img_after_data.
        * intros _. destruct gs; [left; reflexivity|right; exact HG].
    - intros Hne. destruct ds as [|t ds']; [|exact HD].
      destruct gs as [|d cbl sub rest]; [|exact (eq_trans HG HD)].
      rewrite enc_level_eq, enc_groups_gnil, !len_app. cbn [enc_datas level_datas]. rewrite len_nil.
      destruct al as [|a al']; [now contradiction Hne|]. cbn [length Nat.eqb Nat.add] in *.
      rewrite <- Hlen, (proj2 (nth_error_None fs (length fs)) (Nat.le_refl _)). cbn. lia.
  Qed.
End Embedded.

Theorem run_lop_image : stmt_run_lop_image.
Proof.
  unfold stmt_run_lop_image.
  intros be [fs gs ds] [block vgs vds] hdr al pre post b fuel lv o c Hemb Hin.
  split; [exact (ra_addr_img Hemb o Hin)|].
  destruct (lop_img Hemb o c Hin) as (H2 & H4 & H5).
  split; [exact H2|]. split; [exact (doc_after_img Hemb o c Hin)|]. split; assumption.
Qed.
Print Assumptions run_lop_image.

Theorem chain_field_field : stmt_chain_field_field.
Proof.
  unfold stmt_chain_field_field. intros be b fuel l al lv hdr k w w' c Hacc Hin Hmv.
  assert (Hin0 : in_range l al (LF k w) = true) by (rewrite in_range_lt in *; lia).
  cbn [in_range] in Hin, Hin0.
  destruct (nth_error al (S k)) as [a'|] eqn:Ha'; [clear Hin|discriminate].
  destruct (nth_error al k) as [a|] eqn:Ha; [clear Hin0|discriminate].
  destruct (accs_ok_nth hdr _ al 0 k a Hacc (Z.le_refl 0) Ha)
    as (f & Hf & Habs & Hsz & _ & _ & _ & _ & Hlast).
  destruct (accs_ok_nth hdr _ al 0 (S k) a' Hacc (Z.le_refl 0) Ha')
    as (f' & Hf' & Habs' & _ & _ & _ & _ & Hreq' & _).
  cbn [field_req] in Hreq'. rewrite Hf in Hreq'. rewrite Hf' in Hlast.
  cbn [doc_after req_pos]. rewrite Ha, Ha'. cbn [option_map]. f_equal.
  unfold after_field, required_pos. rewrite Hlast.
  destruct w; try discriminate Hmv; lia.
Qed.
Print Assumptions chain_field_field.

Theorem chain_last_field : stmt_chain_last_field.
Proof.
  unfold stmt_chain_last_field. intros be b fuel l al lv hdr k w c Hacc Hin Hout Hmv.
  cbn [in_range] in Hin, Hout.
  destruct (nth_error al k) as [a|] eqn:Ha; [clear Hin|discriminate].
  destruct (nth_error al (S k)) as [a'|] eqn:Ha'; [discriminate|clear Hout].
  destruct (accs_ok_nth hdr _ al 0 k a Hacc (Z.le_refl 0) Ha) as (f & _ & _ & _ & _ & _ & _ & _ & Hlast).
  rewrite (proj2 (nth_error_None (level_fields l) (S k))) in Hlast
    by (rewrite (accs_ok_length hdr _ al 0 Hacc); apply nth_error_None; exact Ha').
  cbn [doc_after]. rewrite Ha. cbn [option_map]. f_equal.
  unfold after_field. rewrite Hlast. destruct w; try discriminate Hmv; reflexivity.
Qed.
Print Assumptions chain_last_field.

Theorem chain_group_group : stmt_chain_group_group.
Proof.
  unfold stmt_chain_group_group.
  intros be [fs gs ds] [block vgs vds] hdr al pre post b fuel lv k w' c Hemb Hin.
  assert (Hin0 : in_range (Level fs gs ds) al (LG k WSkip) = true)
    by (rewrite in_range_lt in Hin |- *; lia).
  rewrite (doc_after_img Hemb _ c Hin0), (req_pos_img Hemb _ Hin eq_refl).
  f_equal. apply img_after_skip_group.
Qed.
Print Assumptions chain_group_group.

Theorem chain_last_group_data : stmt_chain_last_group_data.
Proof.
  unfold stmt_chain_last_group_data.
  intros be [fs gs ds] [block vgs vds] hdr al pre post b fuel lv k w' c Hemb Hin Hout HinD.
  rewrite (doc_after_img Hemb _ c Hin), (req_pos_img Hemb _ HinD).
  - cbn [in_range level_groups] in Hout.
    destruct (groups_nth gs (S k)) eqn:Hn; [discriminate|]. f_equal.
    rewrite (img_after_skip_group _ _ _ _ _ WSkip). apply img_addr_groups_end. exact Hn.
  - cbn [in_range is_first level_groups] in *. destruct gs; [destruct k; discriminate|reflexivity].
Qed.
Print Assumptions chain_last_group_data.

Theorem chain_data_data : stmt_chain_data_data.
Proof.
  unfold stmt_chain_data_data.
  intros be [fs gs ds] [block vgs vds] hdr al pre post b fuel lv k w w' c Hemb Hin Hmv.
  assert (Hin0 : in_range (Level fs gs ds) al (LD k w) = true)
    by (rewrite in_range_lt in Hin |- *; lia).
  rewrite (doc_after_img Hemb _ c Hin0), (req_pos_img Hemb _ Hin eq_refl).
  f_equal. exact (img_after_data _ _ _ _ _ _ _ _ Hmv).
Qed.
Print Assumptions chain_data_data.

Theorem chain_empty_group : stmt_chain_empty_group.
Proof.
  unfold stmt_chain_empty_group.
  intros be [fs gs ds] [block vgs vds] hdr al pre post b fuel lv k w bg c Hemb Hin Hv Hw.
  rewrite (doc_after_img Hemb (LG k w) c Hin), (doc_after_img Hemb (LG k WSkip) c Hin). f_equal.
  cbn [in_range level_groups vlevel_groups] in Hin, Hv.
  destruct (groups_nth gs k) as [[[d cbl] sub]|] eqn:Hg; [|discriminate].
  destruct (nth_group_at be b fuel k _ _ _ bg VENil d cbl sub (proj1 (emb_wf Hemb))
              (emb_fuel Hemb) (proj1 (emb_segs Hemb)) Hv Hg)
    as (_ & Hw1 & _).
  rewrite wf_groups_cons in Hw1. destruct Hw1 as (Hd & Hlen & _).
  cbn [img_after level_groups vlevel_groups]. unfold dim_size_nth, group_len_nth.
  rewrite Hg, Hv, enc_groups_single. cbn [enc_entries].
  rewrite app_nil_r, len_dim_bytes by assumption. destruct Hw as [-> | ->]; reflexivity.
Qed.
Print Assumptions chain_empty_group.

Theorem chain_end_of_level : stmt_chain_end_of_level.
Proof.
  unfold stmt_chain_end_of_level.
  intros be [fs gs ds] [block vgs vds] hdr al pre post b fuel lv k w c Hemb.
  cbn [level_groups level_datas in_range]. split.
  - intros Hin Hout Hmv. rewrite (doc_after_img Hemb (LD k w) c Hin). f_equal.
    destruct (nth_error ds (S k)) eqn:Hn; [discriminate|].
    rewrite (img_after_data _ _ _ _ _ _ w _ Hmv). apply img_addr_datas_end. exact Hn.
  - intros -> Hin Hout. rewrite (doc_after_img Hemb (LG k WSkip) c Hin). f_equal.
    destruct (groups_nth gs (S k)) eqn:Hn; [discriminate|].
    rewrite (img_after_skip_group _ _ _ _ _ WSkip), (img_addr_groups_end be (Level fs gs []) _ _ _ _ WSkip Hn).
    now apply img_addr_datas_end.
Qed.
Print Assumptions chain_end_of_level.

Theorem legal_cons : stmt_legal_cons.
Proof.
  unfold stmt_legal_cons.
  intros be [fs gs ds] [block vgs vds] hdr al pre post b fuel lv o ops c Hemb.
  exact (legal_step Hemb o ops c).
Qed.
Print Assumptions legal_cons.

Theorem run_script_legal : stmt_run_script_legal.
Proof.
  unfold stmt_run_script_legal.
  intros be [fs gs ds] [block vgs vds] hdr al pre post b fuel lv ops c Hemb.
  intros Hl. destruct (run_legal_prefix Hemb [] ops c Hl) as [H1 H2].
  cbn [run_script] in H1. rewrite !app_nil_r in H1.
  rewrite H1, H2. repeat split. apply img_script_ops.
Qed.
Print Assumptions run_script_legal.

Theorem run_script_misuse : stmt_run_script_misuse.
Proof.
  unfold stmt_run_script_misuse.
  intros be [fs gs ds] [block vgs vds] hdr al pre post b fuel lv ops o rest c Hemb
    Hl Hin Hw Hf Hne.
  destruct (run_legal_prefix Hemb (o :: rest) ops c Hl) as [-> ->]. cbn [run_script].
  rewrite (proj2 (proj2 (lop_img Hemb o _ Hin)) Hw Hf Hne). reflexivity.
Qed.
Print Assumptions run_script_misuse.

Theorem schema_script_legal : stmt_schema_script_legal.
Proof.
  unfold stmt_schema_script_legal.
  intros be [fs gs ds] [block vgs vds] hdr al pre post b fuel lv Hemb.
  exact (schema_script_img Hemb).
Qed.
Print Assumptions schema_script_legal.

Theorem embedded_any_path : stmt_embedded_any_path.
Proof.
  unfold stmt_embedded_any_path.
  intros be m hdrbg v pre post path l' v' off al. cbv zeta.
  set (b := pre ++ enc_message be m hdrbg v ++ post).
  intros Hwf Hlt Hres Hacc Hfit.
  destruct (msg_resolve_off (b := b) Hwf eq_refl Hres) as (Hwf' & Hs' & Hr).
  unfold seg in Hs'. destruct Hs' as (pre' & post' & Hb' & Hlen').
  exists pre', post'. rewrite Hlen'. split; [exact Hr|]. split; [reflexivity|].
  assert (Hh0 : 0 <= m_hdr_size m).
  { destruct Hwf as (_ & _ & _ & H3 & _). rewrite <- H3. apply len_nonneg. }
  pose proof (len_nonneg pre) as Hp0. pose proof (len_nonneg pre') as Hp0'.
  unfold embedded. repeat (split; [first [assumption | apply default_fuel_len]|]).
  unfold path_lview, path_hdr. cbn [lv_level lv_start lv_bl lv_end].
  destruct path as [|s path]; [injection Hres as <- <- <-|]; repeat split; try reflexivity; lia.
Qed.
Print Assumptions embedded_any_path.

Theorem run_cur_legal : stmt_run_cur_legal.
Proof.
  unfold stmt_run_cur_legal.
  intros be m hdrbg v pre post path l' v' off al start ops. cbv zeta.
  set (b := pre ++ enc_message be m hdrbg v ++ post).
  set (pos := len pre + m_hdr_size m + off).
  set (c := match start with None => pos | Some o => len pre + o end).
  intros Hwf Hlt Hres Hacc Hfit Hl.
  destruct (embedded_any_path be m hdrbg v pre post path l' v' off al Hwf Hlt Hres Hacc Hfit)
    as (pre' & post' & Hr & Hlen' & Hemb).
  fold b in Hr, Hemb. fold pos in Hlen'. rewrite Hlen' in Hr, Hemb.
  unfold run_cur. rewrite Hr. cbn [obind]. f_equal. fold c.
  destruct (run_script_legal be l' v' _ al pre' post' b _ _ ops c Hemb Hl) as (H1 & H2 & _).
  rewrite H1, H2, Hlen'. reflexivity.
Qed.
Print Assumptions run_cur_legal.

Lemma nth_group_pos_none_in_range be b fuel : forall gs k pos,
  groups_nth gs k = None -> nth_group_pos be b fuel gs k pos = None.
Proof.
  induction gs as [|d0 cbl0 l0 rest IH]; intros k pos H; [reflexivity|].
  destruct k as [|k]; cbn [nth_group_pos groups_nth] in *; [discriminate|].
  destruct (groups_end be b fuel (GCons d0 cbl0 l0 GNil) pos) as [p|]; [|reflexivity].
  cbn [obind]. exact (IH k p H).
Qed.

Theorem run_lop_is_glue : stmt_run_lop_is_glue.
Proof.
  unfold stmt_run_lop_is_glue. intros be b fuel l al lv k w c. split.
  - unfold glue_group. cbn [run_lop ra_addr]. unfold block_end.
    destruct (nth_group_pos be b fuel (level_groups l) k (lv_level lv + lv_bl lv))
      as [[[[gp d] cbl] sub]|] eqn:Hp.
    + rewrite (nth_group_pos_groups_nth be b fuel _ _ _ _ _ _ _ Hp). reflexivity.
    + destruct (groups_nth (level_groups l) k) as [[[d cbl] sub]|]; reflexivity.
  - unfold glue_data. cbn [run_lop ra_addr]. unfold block_end.
    destruct (nth_error (level_datas l) k) as [t|]; [|reflexivity].
    destruct (groups_end be b fuel (level_groups l) (lv_level lv + lv_bl lv)) as [ge|];
      [|reflexivity].
    cbn [obind].
    destruct (nth_data_pos be b (level_datas l) k ge) as [[dp t']|]; reflexivity.
Qed.
Print Assumptions run_lop_is_glue.


(* non-vacuity: a concrete level *)

Module Ex.
  Definition d : dim :=
    {| d_size := 4; d_bl_off := 0; d_bl_t := U16; d_n_off := 2; d_n_t := U16; d_fills := [] |}.
  (* group 0: flat entries; group 1: entries with a data member (nested) *)
  Definition sub0 : level := Level [ {| f_off := 0; f_size := 2 |} ] GNil [].
  Definition sub1 : level := Level [ {| f_off := 0; f_size := 1 |} ] GNil [U8].
  (* two fields (a 2-byte gap before the second), two groups, two data *)
  Definition l : level :=
    Level [ {| f_off := 0; f_size := 2 |}; {| f_off := 4; f_size := 4 |} ]
          (GCons d 2 sub0 (GCons d 1 sub1 GNil)) [U16; U8].
  Definition hdr : Z := 8.
  Definition al : list cacc :=
    [ {| ca_rel := 0; ca_abs := 8; ca_size := 2; ca_last := false; ca_view := false |};
      {| ca_rel := 2; ca_abs := 12; ca_size := 4; ca_last := true; ca_view := false |} ].
  (* wire block of 10 bytes (the fields end at 8: extended block);
     group 0 has 0 entries, group 1 has 2 entries *)
  Definition v : vlevel :=
    VLevel [1;2;3;4;5;6;7;8;9;10]
      (VGCons [2;0;0;0] VENil
      (VGCons [0;0;0;0] (VECons (VLevel [5] VGNil [[1;2]]) (VECons (VLevel [6] VGNil [[]]) VENil))
       VGNil))
      [[7;7;7]; [8]].
  Definition pre : list Z := [9;9;9; 0;0;0;0;0;0;0;0].   (* 3 foreign bytes + 8 header bytes *)
  Definition post : list Z := [9;9].
  Definition b : list Z := pre ++ enc_level false l v ++ post.
  Definition lv : lview := {| lv_start := 3; lv_level := 11; lv_bl := 10; lv_end := len b |}.
  Definition fuel : nat := default_fuel b.

  Lemma emb : embedded false l v hdr al pre post b fuel lv.
  Proof.
    vm_compute. repeat split; try discriminate; try (left; discriminate);
      repeat constructor; vm_compute; repeat split; discriminate.
  Qed.

  (* every member, every wrapper kind, in an order that is legal *)
  Definition legal_script : list lop :=
    [ LF 0 WPlain; LF 1 WDontMove; LF 1 WSkip;
      LG 0 WDontMove; LG 0 WPlain; LG 1 WInitDontMove; LG 1 WDontMove; LG 1 WSkip;
      LD 0 WDontMove; LD 0 WPlain; LD 1 WInit ].

  Example legal_script_is_legal : legal false b fuel l al lv legal_script 11.
  Proof. vm_compute. reflexivity. Qed.

  Example legal_script_runs :
    run_script false b fuel l al lv legal_script 11
    = [(LF 0 WPlain, COk 11 13); (LF 1 WDontMove, COk 15 13); (LF 1 WSkip, COk 15 21);
       (LG 0 WDontMove, COk 21 21); (LG 0 WPlain, COk 21 25);
       (LG 1 WInitDontMove, COk 25 25); (LG 1 WDontMove, COk 25 25); (LG 1 WSkip, COk 25 35);
       (LD 0 WDontMove, COk 35 35); (LD 0 WPlain, COk 35 40); (LD 1 WInit, COk 40 42)].
  Proof. vm_compute. reflexivity. Qed.

  (* ... as the theorem says, ending at the end of the image *)
  Example legal_script_by_theorem :
    run_script false b fuel l al lv legal_script 11 = img_script false l v (len pre) legal_script 11
    /\ end_cursor false b fuel l al lv legal_script 11 = len pre + len (enc_level false l v).
  Proof.
    destruct (run_script_legal false l v hdr al pre post b fuel lv legal_script 11 emb
                legal_script_is_legal) as (H1 & H2 & _).
    split; [rewrite H1; exact H2|vm_compute; reflexivity].
  Qed.

  (* init-type calls make any order legal, from any start cursor *)
  Definition jumping_script : list lop :=
    [ LD 1 WInitDontMove; LD 1 WSkip; LF 1 WInit; LG 0 WSkip; LG 1 WPlain;
      LF 0 WInitDontMove; LF 0 WSkip ].

  Example jumping_script_runs :
    legal false b fuel l al lv jumping_script 0 /\
    run_script false b fuel l al lv jumping_script 0
    = [(LD 1 WInitDontMove, COk 40 40); (LD 1 WSkip, COk 40 42); (LF 1 WInit, COk 15 21);
       (LG 0 WSkip, COk 21 25); (LG 1 WPlain, COk 25 29);
       (LF 0 WInitDontMove, COk 11 11); (LF 0 WSkip, COk 11 13)].
  Proof. split; vm_compute; reflexivity. Qed.

  (* misuse: data 0 with the cursor still after group 0 (group 1 not skipped);
     the call after the report is not executed *)
  Definition illegal_script : list lop := [ LF 0 WPlain; LG 0 WSkip; LD 0 WPlain; LD 1 WPlain ].

  Example illegal_script_runs :
    legalb false b fuel l al lv illegal_script 11 = false /\
    run_script false b fuel l al lv illegal_script 11
    = [(LF 0 WPlain, COk 11 13); (LG 0 WSkip, COk 21 25); (LD 0 WPlain, CAssert)].
  Proof. split; vm_compute; reflexivity. Qed.

  Example illegal_script_by_theorem :
    run_script false b fuel l al lv ([LF 0 WPlain; LG 0 WSkip] ++ LD 0 WPlain :: [LD 1 WPlain]) 11
    = spec_script false b fuel l al lv [LF 0 WPlain; LG 0 WSkip] 11 ++ [(LD 0 WPlain, CAssert)].
  Proof.
    apply (run_script_misuse false l v hdr al pre post b fuel lv _ _ _ 11 emb);
      vm_compute; try reflexivity. discriminate.
  Qed.

  (* field-only misuse: the second field read twice with the plain cursor *)
  Example field_misuse :
    run_script false b fuel l al lv [LF 0 WPlain; LF 1 WPlain; LF 1 WPlain] 11
    = [(LF 0 WPlain, COk 11 13); (LF 1 WPlain, COk 15 21); (LF 1 WPlain, CAssert)].
  Proof. vm_compute. reflexivity. Qed.

  Example schema_script_runs :
    schema_script l al
    = [LF 0 WPlain; LF 1 WPlain; LG 0 WSkip; LG 1 WSkip; LD 0 WPlain; LD 1 WPlain] /\
    run_script false b fuel l al lv (schema_script l al) 11
    = [(LF 0 WPlain, COk 11 13); (LF 1 WPlain, COk 15 21); (LG 0 WSkip, COk 21 25);
       (LG 1 WSkip, COk 25 35); (LD 0 WPlain, COk 35 40); (LD 1 WPlain, COk 40 42)].
  Proof. split; vm_compute; reflexivity. Qed.

  (* the same level as the root of a message, through the "cur" command:
     the root level and entry 1 of group 1 *)
  Definition m : message :=
    {| m_hdr_size := 8; m_bl_off := 0; m_bl_t := U16; m_cbl := 8; m_fills := [];
       m_level := l |}.
  Definition hdrbg : list Z := [0;0;0;0;0;0;0;0].
  Definition mb : list Z := [9;9;9] ++ enc_message false m hdrbg v ++ post.
  Definition al1 : list cacc :=
    [ {| ca_rel := 0; ca_abs := 0; ca_size := 1; ca_last := true; ca_view := false |} ].

  Lemma wfm : wf_message false m hdrbg v /\ len mb < 2 ^ 64.
  Proof.
    vm_compute. repeat split; try discriminate; try (left; discriminate);
      repeat constructor; vm_compute; repeat split; discriminate.
  Qed.

  Example cur_root_runs :
    run_cur false mb m 3 [] al None legal_script
    = Some [(LF 0 WPlain, COk 11 13); (LF 1 WDontMove, COk 15 13); (LF 1 WSkip, COk 15 21);
       (LG 0 WDontMove, COk 21 21); (LG 0 WPlain, COk 21 25);
       (LG 1 WInitDontMove, COk 25 25); (LG 1 WDontMove, COk 25 25); (LG 1 WSkip, COk 25 35);
       (LD 0 WDontMove, COk 35 35); (LD 0 WPlain, COk 35 40); (LD 1 WInit, COk 40 42)].
  Proof. vm_compute. reflexivity. Qed.

  Example cur_entry_runs :
    run_cur false mb m 3 [SGroup 1 1] al1 None [LF 0 WPlain; LD 0 WDontMove; LD 0 WSkip; LF 0 WSkip]
    = Some [(LF 0 WPlain, COk 33 34); (LD 0 WDontMove, COk 34 34); (LD 0 WSkip, COk 34 35);
            (LF 0 WSkip, CAssert)].
  Proof. vm_compute. reflexivity. Qed.

  Example cur_entry_by_theorem :
    run_cur false mb m 3 [SGroup 1 1] al1 None [LF 0 WPlain; LD 0 WDontMove; LD 0 WSkip]
    = Some (img_script false sub1 (VLevel [6] VGNil [[]]) 33
              [LF 0 WPlain; LD 0 WDontMove; LD 0 WSkip] 33).
  Proof.
    destruct wfm as [Hwf Hlt].
    refine (run_cur_legal false m hdrbg v [9;9;9] post [SGroup 1 1] sub1 (VLevel [6] VGNil [[]])
              22 al1 None _ Hwf Hlt _ _ _ _).
    - vm_compute. reflexivity.
    - cbn. repeat split; lia.
    - repeat constructor; cbn; lia.
    - vm_compute. reflexivity.
  Qed.
End Ex.
