(* DynProofs.v — proofs about Dyn.v: every vector-valid call on a well-formed
   <data> view returns normally, refines the std::vector operation, returns
   the same position and leaves every byte outside
   [voff, voff + szof + max(old size, new size)) untouched.

   For every member function body there is one statement ([does]): run on a
   well-formed buffer it returns normally, with which result, new size and
   new contents, and what it leaves untouched.  It is proved by running the
   code statement by statement, carrying well-formedness and the frame
   along ([upd]); the new contents are read off with a few facts about
   slices of splices. *)
From Coq Require Import ZArith List Bool Lia.
From Sbepp Require Import CInt CIntFacts BytesFacts Dyn.
Import ListNotations.
Local Open Scope Z_scope.

(* Dyn.v imports only CInt: its [zlen], [slice], [splice], [inb] and codec are
   constants of its own, convertible to [len], [slice], [splice], [in_buf] and
   the codec of Bytes.v (the codec up to the place of the case on [be]).  A
   BytesFacts lemma therefore proves the fact about Dyn's constant by [exact], but
   does not [rewrite] with it; the facts used for rewriting are restated here. *)
Lemma zlen_nonneg l : 0 <= zlen l.
Proof. exact (len_nonneg l). Qed.

Lemma zlen_app a c : zlen (a ++ c) = zlen a + zlen c.
Proof. exact (len_app a c). Qed.

Lemma zlen_zrepeat x c : zlen (zrepeat x c) = Z.max 0 c.
Proof. unfold zlen, zrepeat. rewrite repeat_length. lia. Qed.

Lemma zlen_slice b o n : 0 <= o -> o + Z.max 0 n <= zlen b -> zlen (slice b o n) = Z.max 0 n.
Proof. unfold zlen, slice. intros. rewrite firstn_length, skipn_length. lia. Qed.

Lemma in_buf_intro b o bs :
  0 <= o -> o + zlen bs <= zlen b -> Bytes.in_buf b o (Bytes.len bs) = true.
Proof. intros. apply in_buf_iff. pose proof (zlen_nonneg bs). auto. Qed.

Lemma slice_split b o j n : 0 <= o -> 0 <= j <= n ->
  slice b o n = slice b o j ++ slice b (o + j) (n - j).
Proof.
  intros. replace n with (j + (n - j)) at 1 by lia. symmetry. apply (slice_app b o j (n - j)). lia.
Qed.

Lemma zfirstn_slice b o n c : 0 <= c <= n -> zfirstn c (slice b o n) = slice b o c.
Proof. intros. unfold zfirstn, slice. rewrite firstn_firstn. f_equal. lia. Qed.

Lemma zskipn_slice b o n l : 0 <= o -> 0 <= l <= n ->
  zskipn l (slice b o n) = slice b (o + l) (n - l).
Proof.
  intros. unfold zskipn, slice. rewrite skipn_firstn_comm, Z2Nat.inj_add, skipn_add by lia.
  f_equal. lia.
Qed.

Lemma zfirstn_app_all a c k : zlen a = Z.max 0 k -> zfirstn k (a ++ c) = a.
Proof.
  intros H. unfold zfirstn, zlen in *. replace (Z.to_nat k) with (length a) by lia.
  rewrite firstn_app, firstn_all, Nat.sub_diag. apply app_nil_r.
Qed.

Lemma zskipn_all l n : zlen l = n -> zskipn n l = [].
Proof. intros <-. unfold zskipn, zlen. rewrite Nat2Z.id. apply skipn_all. Qed.

Lemma zfirstn_zrepeat x k c l : k <= c -> zfirstn k (zrepeat x c ++ l) = zrepeat x k.
Proof.
  intros. unfold zrepeat at 1.
  replace (Z.to_nat c) with (Z.to_nat k + (Z.to_nat c - Z.to_nat k))%nat by lia.
  rewrite repeat_app, <- app_assoc. apply zfirstn_app_all, zlen_zrepeat.
Qed.

Lemma slice_splice_far b o bs o' k :
  0 <= o <= zlen b -> 0 <= o' -> o' + Z.max 0 k <= o \/ o + zlen bs <= o' ->
  slice (splice b o bs) o' k = slice b o' k.
Proof. exact (slice_splice_disjoint b o bs o' k). Qed.

Lemma slice_splice_at b o bs k : 0 <= o -> k = zlen bs -> o + k <= zlen b ->
  slice (splice b o bs) o k = bs.
Proof. intros Ho -> Hb. exact (slice_splice_same b o bs (in_buf_intro b o bs Ho Hb)). Qed.

(* the first n bytes at o after the bytes from o + l on were moved down to
   o + f, and after the bytes from o + p on were moved up by k and ys written
   into the gap *)
Lemma slice_erased b o f l n : 0 <= o -> 0 <= f <= l -> l <= n -> o + n <= zlen b ->
  slice (splice b (o + f) (slice b (o + l) (n - l))) o (n - (l - f))
  = slice b o f ++ slice b (o + l) (n - l).
Proof.
  intros Ho Hf Hl Hb. rewrite (slice_split _ o f) by lia. f_equal.
  - apply slice_splice_far; lia.
  - replace (n - (l - f) - f) with (n - l) by ring. apply slice_splice_at; rewrite ?zlen_slice; lia.
Qed.

Lemma slice_inserted b o p k n ys : 0 <= o -> 0 <= p <= n -> k = zlen ys -> o + (n + k) <= zlen b ->
  slice (splice (splice b (o + (p + k)) (slice b (o + p) (n - p))) (o + p) ys) o (n + k)
  = slice b o p ++ ys ++ slice b (o + p) (n - p).
Proof.
  intros Ho Hp -> Hb. pose proof (zlen_nonneg ys).
  assert (Hm : zlen (slice b (o + p) (n - p)) = n - p) by (rewrite zlen_slice; lia).
  assert (Hl : zlen (splice b (o + (p + zlen ys)) (slice b (o + p) (n - p))) = zlen b).
  { unfold zlen at 1. rewrite length_splice; [reflexivity|]. apply in_buf_intro; lia. }
  rewrite (slice_split _ o (p + zlen ys)), (slice_split _ o p (p + zlen ys)), <- app_assoc by lia.
  f_equal; [|f_equal].
  - rewrite !slice_splice_far by lia. reflexivity.
  - replace (p + zlen ys - p) with (zlen ys) by ring. apply slice_splice_at; lia.
  - replace (n + zlen ys - (p + zlen ys)) with (n - p) by ring.
    rewrite slice_splice_far by lia. apply slice_splice_at; lia.
Qed.

Lemma vec_resize_le xs c fill : c <= zlen xs -> vec_resize xs c fill = zfirstn c xs.
Proof. intros. unfold vec_resize. replace (c <=? zlen xs) with true by lia. reflexivity. Qed.

Lemma vec_resize_gt xs c fill : zlen xs < c ->
  vec_resize xs c fill = xs ++ zfirstn (c - zlen xs) (fill ++ zrepeat 0 (c - zlen xs)).
Proof. intros. unfold vec_resize. replace (c <=? zlen xs) with false by lia. reflexivity. Qed.

Lemma vec_insert_app a c ys : vec_insert (a ++ c) (zlen a) ys = a ++ ys ++ c.
Proof.
  unfold vec_insert, zfirstn, zskipn, zlen. rewrite Nat2Z.id, firstn_app, skipn_app.
  rewrite firstn_all, skipn_all, Nat.sub_diag. cbn [firstn skipn app]. rewrite app_nil_r. reflexivity.
Qed.

Lemma vec_insert_nil xs p : vec_insert xs p [] = xs.
Proof. apply firstn_skipn. Qed.

Lemma vec_insert_cons xs p y r : 0 <= p <= zlen xs ->
  vec_insert (vec_insert xs p [y]) (p + 1) r = vec_insert xs p (y :: r).
Proof.
  intros Hp. pose proof (firstn_skipn (Z.to_nat p) xs) as E.
  assert (Hl : zlen (firstn (Z.to_nat p) xs) = p) by (unfold zlen in *; rewrite firstn_length; lia).
  revert E Hl. generalize (firstn (Z.to_nat p) xs) (skipn (Z.to_nat p) xs). intros a c <- <-.
  rewrite !vec_insert_app, (app_assoc a [y] c). change (zlen a + 1) with (zlen a + zlen [y]).
  rewrite <- zlen_app, vec_insert_app, <- app_assoc. reflexivity.
Qed.

Lemma zlen_cons x l : zlen (x :: l) = 1 + zlen l.
Proof. unfold zlen. cbn [length]. lia. Qed.

Lemma all_bytes_zrepeat x c : is_byte x = true -> all_bytes (zrepeat x c) = true.
Proof.
  intros Hx. apply forallb_forall. intros y Hy. apply repeat_spec in Hy. subst. assumption.
Qed.

Lemma dec_enc_small be n c : 0 <= c < 256 ^ Z.of_nat n -> dec be (enc be n c) = c.
Proof.
  intros H. destruct be;
    [exact (BytesFacts.dec_enc_small true n c H)|exact (BytesFacts.dec_enc_small false n c H)].
Qed.

Lemma dec_bound be l : all_bytes l = true -> 0 <= dec be l < 256 ^ zlen l.
Proof.
  intros H. destruct be; [exact (BytesFacts.dec_bound true l H)|exact (BytesFacts.dec_bound false l H)].
Qed.

Lemma szof_pos T : 1 <= szof T <= 8.
Proof. destruct T; cbn; lia. Qed.

Lemma pow256_szof T : is_signed T = false -> 256 ^ szof T = tmax T + 1.
Proof. destruct T; try discriminate; reflexivity. Qed.

Lemma ccast_id T z : is_signed T = false -> 0 <= z <= tmax T -> ccast T z = z.
Proof. intros HT Hz. apply wrap_id'. unfold tmin. rewrite HT. exact Hz. Qed.

Lemma bind_ok {A B} (m : M A) (f : A -> M B) b a b1 :
  m b = Ok (a, b1) -> bind m f b = f a b1.
Proof. intros H. unfold bind. rewrite H. reflexivity. Qed.

(* [run L]: the first call of the sequence returns what lemma [L] says; the
   hypotheses of [L] are in the context or are arithmetic *)
Ltac run L := erewrite bind_ok by (eapply L; first [eassumption | lia]).

Lemma bind_lift {A B} (x : A) (f : A -> M B) b : bind (lift (Some x)) f b = f x b.
Proof. reflexivity. Qed.

Lemma rd_ok b o n : 0 <= o -> 0 <= n -> o + n <= zlen b -> rd o n b = Ok (slice b o n, b).
Proof. intros. unfold rd, inb. replace (_ || _) with true by lia. reflexivity. Qed.

Lemma wr_ok b o bs : 0 <= o -> o + zlen bs <= zlen b -> wr o bs b = Ok (tt, splice b o bs).
Proof.
  intros. pose proof (zlen_nonneg bs). unfold wr, inb. replace (_ || _) with true by lia.
  reflexivity.
Qed.

(* std::copy of the j bytes at s; std::copy_backward s e dl is, by
   computation, copy s e (dl - (e - s)) *)
Lemma copy_ok j b s e d : e = s + j -> 0 <= s -> 0 <= j -> e <= zlen b -> 0 <= d -> d + j <= zlen b ->
  copy s e d b = Ok (tt, splice b d (slice b s j)).
Proof.
  intros -> Hs Hj He Hd Hdj. unfold copy. replace (s + j - s) with j by lia.
  replace (j <? 0) with false by lia. run rd_ok. apply wr_ok; rewrite ?zlen_slice; lia.
Qed.

Section View.
  Variable v : view.
  Local Notation T := (vT v).
  Local Notation L := (szof (vT v)).
  Local Notation off := (voff v).
  Local Notation cap := (vcap v).
  Local Notation D := (dstart v).

  (* a well-formed buffer in which the view has size n *)
  Set Implicit Arguments.
  Record st (b : list Z) (n : Z) : Prop := {
    st_T : is_signed T = false;
    st_bytes : all_bytes b = true;
    st_sz : size_of v b = n;
    st_bounds : 0 <= off /\ 1 <= L <= cap /\ off + cap <= zlen b < 2 ^ 64 /\
                0 <= n <= tmax T /\ L + n <= cap /\ D = off + L
  }.
  Unset Implicit Arguments.

  Lemma wf_st b : wf v b = true -> st b (size_of v b).
  Proof.
    unfold wf.
    intros [[[[[[H1 H2]%andb_prop H3]%andb_prop H4]%andb_prop Hb]%andb_prop H5]%andb_prop HT]%andb_prop.
    assert (Hs : is_signed T = false) by (destruct T; reflexivity || discriminate HT).
    pose proof (szof_pos T).
    pose proof (dec_bound (vbe v) (slice b off L) (bytes_ok_slice b off L Hb)) as Hd.
    rewrite zlen_slice, Z.max_r, (pow256_szof T Hs) in Hd by lia.
    fold (size_of v b) in Hd. constructor; [assumption..|reflexivity|]. unfold dstart. lia.
  Qed.

  Lemma st_wf {b n} : st b n -> wf v b = true.
  Proof.
    intros [HT Hb <- HS]. unfold wf. rewrite Hb.
    replace (match T with U8 | U16 | U32 | U64 => true | _ => false end) with true
      by (destruct T; reflexivity || discriminate HT).
    lia.
  Qed.

  Lemma fits_iff m : fits v m = true <-> 0 <= m <= tmax T - 1 /\ L + m <= cap.
  Proof. unfold fits, max_size. lia. Qed.

  Lemma abs_eq {b n} : st b n -> abs v b = slice b D n.
  Proof. intros S. unfold abs. rewrite (st_sz S). reflexivity. Qed.

  Lemma zlen_abs {b n} : st b n -> zlen (abs v b) = n.
  Proof. intros S. pose proof (st_bounds S). rewrite (abs_eq S), zlen_slice; lia. Qed.

  Lemma sbepp_assert_ok (c : M bool) b : c b = Ok (true, b) -> sbepp_assert v c b = Ok (tt, b).
  Proof.
    intros H. unfold sbepp_assert. destruct (vchk v); [|reflexivity].
    rewrite (bind_ok _ _ _ _ _ H). reflexivity.
  Qed.

  Lemma size_check_ok b n k : st b n -> k <= cap -> size_check v k b = Ok (tt, b).
  Proof.
    intros S Hk. pose proof (st_bounds S). apply sbepp_assert_ok. unfold ret.
    rewrite wrap_u64 by lia. replace (k <=? cap) with true by lia. reflexivity.
  Qed.

  Lemma get_size_ok b n : st b n -> get_size v b = Ok (n, b).
  Proof.
    intros S. pose proof (st_bounds S). unfold get_size. run size_check_ok. run rd_ok.
    rewrite <- (st_sz S). reflexivity.
  Qed.

  Lemma data_unchecked_ok b n : st b n -> data_unchecked v b = Ok (D, b).
  Proof.
    intros S. pose proof (st_bounds S). unfold data_unchecked. run size_check_ok. reflexivity.
  Qed.

  Lemma data_checked_ok b n : st b n -> data_checked v b = Ok (D, b).
  Proof.
    intros S. pose proof (st_bounds S). unfold data_checked.
    rewrite (bind_ok _ _ b tt b); [exact (data_unchecked_ok b n S)|]. apply sbepp_assert_ok.
    run get_size_ok. rewrite cadd_size_t, bind_lift by lia. unfold ret.
    rewrite wrap_u64 by lia. replace (L + n <=? cap) with true by lia. reflexivity.
  Qed.

  Lemma end_ok b n : st b n -> end_ v b = Ok (D + n, b).
  Proof. intros S. unfold end_, begin_. run data_checked_ok. run get_size_ok. reflexivity. Qed.

  Lemma index_ok b n pos : st b n -> 0 <= pos < n -> index v pos b = Ok (D + pos, b).
  Proof.
    intros S Hp. unfold index.
    rewrite (bind_ok _ _ b tt b); [run data_checked_ok; reflexivity|]. apply sbepp_assert_ok.
    run get_size_ok. unfold ret. replace (pos <? n) with true by lia. reflexivity.
  Qed.

  (* the assertions of insert and erase hold: cmp compares with end() *)
  Lemma in_range_ok (cmp : Z -> Z -> bool) b n p : st b n -> 0 <= p -> cmp (D + p) (D + n) = true ->
    sbepp_assert v (b0 <- begin_ v ;;
                    if b0 <=? D + p then (e <- end_ v ;; ret (cmp (D + p) e)) else ret false) b
    = Ok (tt, b).
  Proof.
    intros S Hp Hc. apply sbepp_assert_ok. unfold begin_. run data_checked_ok.
    replace (D <=? D + p) with true by lia. run end_ok. unfold ret. rewrite Hc. reflexivity.
  Qed.

  Lemma erase_range_cond_ok b n f l : st b n -> 0 <= f <= l -> l <= n ->
    sbepp_assert v (erase_range_cond false v (D + f) (D + l)) b = Ok (tt, b).
  Proof.
    intros S Hf Hl. unfold erase_range_cond. replace (D + f <=? D + l) with true by lia.
    apply (in_range_ok (fun _ e => D + l <=? e) b n f S); lia.
  Qed.

  Definition set_size (b : list Z) (c : Z) : list Z := splice b off (enc (vbe v) (Z.to_nat L) c).

  Lemma zlen_enc c : zlen (enc (vbe v) (Z.to_nat L) c) = L.
  Proof. unfold zlen. rewrite (length_enc (vbe v)). pose proof (szof_pos T). lia. Qed.

  Lemma resize_di_ok b n c : st b n -> 0 <= c -> L + c <= cap ->
    resize_di v c b = Ok (tt, set_size b c).
  Proof.
    intros S Hc Hf. pose proof (st_bounds S). unfold resize_di.
    rewrite cadd_size_t, bind_lift by lia. run size_check_ok. apply wr_ok; rewrite ?zlen_enc; lia.
  Qed.

  Lemma slice_set_size {b n} c o k : st b n -> D <= o -> slice (set_size b c) o k = slice b o k.
  Proof.
    intros S Ho. pose proof (st_bounds S). apply slice_splice_far; rewrite ?zlen_enc; lia.
  Qed.

  Lemma frame_splice b o bs m :
    0 <= off <= o -> o + zlen bs <= zlen b -> o + zlen bs <= off + L + m ->
    frame v b (splice b o bs) m.
  Proof.
    intros Ho Hb Hm. assert (Hin := in_buf_intro b o bs ltac:(lia) Hb).
    split; [exact (length_splice b o bs Hin)|]. intros i Hi Hout.
    apply (nth_splice_other b o bs _ 0 Hin). unfold zlen in *. lia.
  Qed.

  Lemma frame_zlen {a b m} : frame v a b m -> zlen b = zlen a.
  Proof. intros [Hl _]. unfold zlen. rewrite Hl. reflexivity. Qed.

  Lemma frame_refl a m : frame v a a m.
  Proof. split; reflexivity. Qed.

  Lemma frame_trans a b c m1 m2 m :
    frame v a b m1 -> frame v b c m2 -> m1 <= m -> m2 <= m -> frame v a c m.
  Proof.
    intros [Hl1 H1] [Hl2 H2] Hm1 Hm2. split; [congruence|].
    intros i Hi Ho. rewrite H2 by lia. apply H1; lia.
  Qed.

  (* b' has size n' and differs from b only in the length prefix and the
     first m payload bytes *)
  Definition upd (b b' : list Z) (n' m : Z) : Prop := st b' n' /\ frame v b b' m.

  Lemma upd_refl {b n} m : st b n -> upd b b n m.
  Proof. intros S. split; [exact S|apply frame_refl]. Qed.

  Lemma upd_zlen {b b' n' m} : upd b b' n' m -> zlen b' = zlen b.
  Proof. intros [_ F]. exact (frame_zlen F). Qed.

  Lemma upd_trans {a b c n1 n2 m1 m2} m :
    upd a b n1 m1 -> upd b c n2 m2 -> m1 <= m -> m2 <= m -> upd a c n2 m.
  Proof.
    intros [_ F1] [S2 F2] H1 H2. split; [exact S2|exact (frame_trans a b c m1 m2 m F1 F2 H1 H2)].
  Qed.

  Lemma upd_set_size {b b1 n1 m} c :
    upd b b1 n1 m -> 0 <= m /\ 0 <= c <= tmax T /\ L + c <= cap -> upd b (set_size b1 c) c m.
  Proof.
    intros [S F] Hc. pose proof (st_bounds S) as HS.
    assert (F1 : frame v b1 (set_size b1 c) m) by (apply frame_splice; rewrite ?zlen_enc; lia).
    split; [|exact (frame_trans b b1 _ m m m F F1 (Z.le_refl m) (Z.le_refl m))].
    destruct S as [HT Hb _ _]. constructor; [exact HT| | |rewrite (frame_zlen F1); lia].
    - apply bytes_ok_splice; [exact Hb|exact (enc_ok _ _ _)].
    - unfold size_of, set_size. rewrite slice_splice_at by (rewrite ?zlen_enc; lia).
      apply dec_enc_small. rewrite Z2Nat.id, (pow256_szof T HT) by lia. lia.
  Qed.

  Lemma upd_splice {b b1 n1 m} o ys :
    upd b b1 n1 m -> D <= o /\ o + zlen ys <= D + m /\ L + m <= cap -> all_bytes ys = true ->
    upd b (splice b1 o ys) n1 m.
  Proof.
    intros [S F] Ho Hy. pose proof (st_bounds S) as HS. pose proof (zlen_nonneg ys).
    assert (F1 : frame v b1 (splice b1 o ys) m) by (apply frame_splice; lia).
    split; [|exact (frame_trans b b1 _ m m m F F1 (Z.le_refl m) (Z.le_refl m))].
    destruct S as [HT Hb Hsz _]. constructor; [exact HT| | |rewrite (frame_zlen F1); lia].
    - apply bytes_ok_splice; assumption.
    - rewrite <- Hsz. unfold size_of. f_equal. apply slice_splice_far; lia.
  Qed.

  (* moving j payload bytes from element index s to element index d *)
  Lemma upd_move {b b1 n1 m} d s j :
    upd b b1 n1 m -> 0 <= d /\ 0 <= s /\ 0 <= j /\ d + j <= m /\ s + j <= m /\ L + m <= cap ->
    upd b (splice b1 (D + d) (slice b1 (D + s) j)) n1 m.
  Proof.
    intros U H. pose proof (st_bounds (proj1 U)).
    apply upd_splice; [exact U|rewrite zlen_slice by lia; lia|].
    apply bytes_ok_slice, (st_bytes (proj1 U)).
  Qed.

  (* the new size is computed in C arithmetic, converted back to size_type
     and stored *)
  Lemma resize_to_ok {A} f tb k c (rest : M A) b n :
    st b n -> (bits tb < 32 -> tb = T) -> 0 <= k <= tmax T -> c = f n k ->
    0 <= c <= tmax T -> L + c <= cap ->
    (s1 <- lift (cbin f T tb n k) ;; resize_di v (ccast T s1) ;;; rest) b = rest (set_size b c).
  Proof.
    intros S Htb Hk -> Hc Hf. pose proof (st_bounds S).
    rewrite (size_arith f T tb n k (st_T S) Htb ltac:(lia) Hk Hc), bind_lift.
    rewrite (ccast_id T _ (st_T S) Hc). run resize_di_ok. reflexivity.
  Qed.

  (* run on b, where the view has size n, m returns a and leaves a view of
     size n' with contents xs', having written only the length prefix and the
     first max n n' payload bytes *)
  Definition does {A} (m : M A) (b : list Z) (n : Z) (a : A) (n' : Z) (xs' : list Z) : Prop :=
    exists b', m b = Ok (a, b') /\ upd b b' n' (Z.max n n') /\ abs v b' = xs'.

  (* erase(pos) and erase(first, last): c is the asserted condition, the
     position of last is computed as pl, the number of erased elements as k
     in type tb *)
  Lemma erase_does c tb k pl {b n} f l n' :
    st b n -> sbepp_assert v c b = Ok (tt, b) -> 0 <= f <= l -> l <= n -> 32 <= bits tb ->
    pl = D + l -> k = l - f -> n' = n - k ->
    does (sbepp_assert v c ;;; e <- end_ v ;; copy pl e (D + f) ;;; n0 <- get_size v ;;
          s1 <- lift (csub T tb n0 k) ;; resize_di v (ccast T s1) ;;; ret (D + f))
      b n (D + f) n' (zfirstn f (abs v b) ++ zskipn l (abs v b)).
  Proof.
    intros S Hc Hf Hl Htb -> -> ->. pose proof (st_bounds S).
    assert (U1 := upd_move f l (n - l) (upd_refl (Z.max n (n - (l - f))) S) ltac:(lia)).
    assert (U := upd_set_size (n - (l - f)) U1 ltac:(lia)).
    destruct U1 as [S1 _].
    eexists. split; [|split; [exact U|]].
    - rewrite (bind_ok _ _ _ _ _ Hc). run end_ok. run (copy_ok (n - l)). run get_size_ok.
      rewrite (resize_to_ok Z.sub tb (l - f) (n - (l - f)) _ _ n S1) by lia. reflexivity.
    - rewrite (abs_eq (proj1 U)), (abs_eq S), zfirstn_slice, zskipn_slice by lia.
      rewrite (slice_set_size _ _ _ S1) by lia. apply slice_erased; lia.
  Qed.

  Lemma pop_back_does {b n} : st b n -> 0 < n ->
    does (pop_back v) b n tt (n - 1) (zfirstn (n - 1) (abs v b)).
  Proof.
    intros S Hn. pose proof (st_bounds S).
    assert (U := upd_set_size (n - 1) (upd_refl (Z.max n (n - 1)) S) ltac:(lia)).
    eexists. split; [|split; [exact U|]].
    - unfold pop_back. rewrite (bind_ok _ _ b tt b).
      + run get_size_ok. rewrite (resize_to_ok Z.sub I32 1 (n - 1) _ b n S) by (discriminate || lia).
        reflexivity.
      + apply sbepp_assert_ok. run get_size_ok. unfold ret.
        replace (n =? 0) with false by lia. reflexivity.
    - rewrite (abs_eq (proj1 U)), (abs_eq S), (slice_set_size _ _ _ S), zfirstn_slice by lia.
      reflexivity.
  Qed.

  (* insert(pos, x), insert(pos, count, x) and insert(pos, first, last) for
     forward iterators: k elements ys, k added to the size in type tb *)
  Lemma insert_does tb k ys {b n} p :
    st b n -> (bits tb < 32 -> tb = T) -> k = zlen ys -> all_bytes ys = true -> 0 <= p <= n ->
    fits v (n + k) = true ->
    does (sbepp_assert v (in_range_incl v (D + p)) ;;; old_end <- end_ v ;; n0 <- get_size v ;;
          s1 <- lift (cadd T tb n0 k) ;; resize_di v (ccast T s1) ;;; e <- end_ v ;;
          copy_backward (D + p) old_end e ;;; wr (D + p) ys ;;; ret (D + p))
      b n (D + p) (n + k) (vec_insert (abs v b) p ys).
  Proof.
    intros S Htb Hk Hy Hp Hfit. apply fits_iff in Hfit.
    pose proof (st_bounds S). pose proof (zlen_nonneg ys).
    assert (U1 := upd_set_size (n + k) (upd_refl (Z.max n (n + k)) S) ltac:(lia)).
    assert (U2 := upd_move (p + k) p (n - p) U1 ltac:(lia)).
    assert (U := upd_splice (D + p) ys U2 ltac:(lia) Hy).
    pose proof (upd_zlen U1). pose proof (upd_zlen U2). destruct U1 as [S1 _], U2 as [S2 _].
    eexists. split; [|split; [exact U|]].
    - run (in_range_ok Z.leb). run end_ok. run get_size_ok.
      rewrite (resize_to_ok Z.add tb k (n + k) _ b n S Htb) by lia.
      run end_ok. change (copy_backward ?s ?e ?dl) with (copy s e (dl - (e - s))).
      run (copy_ok (n - p)). replace (D + (n + k) - (D + n - (D + p))) with (D + (p + k)) by ring.
      run wr_ok. reflexivity.
    - rewrite (abs_eq (proj1 U)), (abs_eq S). unfold vec_insert.
      rewrite zfirstn_slice, zskipn_slice, slice_inserted, !(slice_set_size _ _ _ S) by lia.
      reflexivity.
  Qed.

  Lemma push_back_does {b n} x : st b n -> is_byte x = true -> fits v (n + 1) = true ->
    does (push_back v x) b n tt (n + 1) (abs v b ++ [x]).
  Proof.
    intros S Hx Hfit. apply fits_iff in Hfit. pose proof (st_bounds S).
    assert (H1 : zlen [x] = 1) by reflexivity.
    assert (U1 := upd_set_size (n + 1) (upd_refl (Z.max n (n + 1)) S) ltac:(lia)).
    assert (U := upd_splice (D + n) [x] U1 ltac:(lia) (all_bytes_zrepeat x 1 Hx)).
    pose proof (upd_zlen U1). destruct U1 as [S1 _].
    eexists. split; [|split; [exact U|]].
    - unfold push_back. run get_size_ok.
      rewrite (resize_to_ok Z.add I32 1 (n + 1) _ b n S) by (discriminate || lia).
      run index_ok. run wr_ok. reflexivity.
    - rewrite (abs_eq (proj1 U)), (abs_eq S), (slice_split _ D n) by lia. f_equal.
      + rewrite slice_splice_far by lia. apply (slice_set_size _ _ _ S). lia.
      + apply slice_splice_at; lia.
  Qed.

  (* the loop of resize(count, x): elements i, i+1, ... become x *)
  Lemma fill_loop_does x c : is_byte x = true -> forall k i b,
    st b c -> 0 <= i -> i + Z.of_nat k = c ->
    exists b', fill_loop v k i x b = Ok (tt, b') /\ upd b b' c c /\
      slice b' D c = slice b D i ++ repeat x k.
  Proof.
    intros Hx. induction k as [|k IH]; intros i b S Hi Hk; cbn [fill_loop repeat].
    - exists b. split; [reflexivity|]. split; [exact (upd_refl c S)|].
      rewrite app_nil_r. f_equal. lia.
    - pose proof (st_bounds S). assert (H1 : zlen [x] = 1) by reflexivity.
      assert (U1 := upd_splice (D + i) [x] (upd_refl c S) ltac:(lia) (all_bytes_zrepeat x 1 Hx)).
      destruct (IH (i + 1) _ (proj1 U1) ltac:(lia) ltac:(lia)) as (b' & E & U2 & A).
      exists b'. split; [|split; [exact (upd_trans c U1 U2 (Z.le_refl c) (Z.le_refl c))|]].
      + run index_ok. run wr_ok. rewrite (ccast_id T (i + 1) (st_T S)) by lia. exact E.
      + rewrite A, (slice_split _ D i (i + 1)), slice_splice_far, slice_splice_at, <- app_assoc
          by lia.
        reflexivity.
  Qed.

  (* resize(count) and resize(count, x) *)
  Lemma resize_val_does {b n} c x fill : st b n -> is_byte x = true -> fits v c = true ->
    zrepeat x (c - n) = zfirstn (c - n) (fill ++ zrepeat 0 (c - n)) ->
    does (resize_val v c x) b n tt c (vec_resize (abs v b) c fill).
  Proof.
    intros S Hx Hfit Hws. apply fits_iff in Hfit. pose proof (st_bounds S).
    pose proof (zlen_abs S) as Hxl.
    assert (U1 := upd_set_size c (upd_refl (Z.max n c) S) ltac:(lia)).
    unfold does, resize_val. run get_size_ok. run resize_di_ok. destruct (Z.leb_spec c n).
    - replace (c >? n) with false by lia. eexists. split; [reflexivity|]. split; [exact U1|].
      rewrite (abs_eq (proj1 U1)), vec_resize_le, (abs_eq S), (slice_set_size _ _ _ S), zfirstn_slice
        by lia.
      reflexivity.
    - replace (c >? n) with true by lia.
      destruct (fill_loop_does x c Hx (Z.to_nat (c - n)) n _ (proj1 U1)) as (b' & E & U2 & A);
        [lia..|].
      exists b'. split; [rewrite (bind_ok _ _ _ _ _ E); reflexivity|].
      split; [apply (upd_trans _ U1 U2); lia|].
      rewrite (abs_eq (proj1 U2)), A, vec_resize_gt, Hxl, <- Hws, (abs_eq S), (slice_set_size _ _ _ S)
        by lia.
      reflexivity.
  Qed.

  (* resize(count, default_init) and clear: the new elements, if any, are what
     the buffer held *)
  Lemma resize_di_does {b n} c : st b n -> 0 <= c <= tmax T -> L + c <= cap ->
    does (resize_di v c) b n tt c (vec_resize (abs v b) c (slice b (D + n) (c - n))).
  Proof.
    intros S Hc Hf. pose proof (st_bounds S). pose proof (zlen_abs S) as Hxl.
    assert (U := upd_set_size c (upd_refl (Z.max n c) S) ltac:(lia)).
    eexists. split; [|split; [exact U|]].
    - apply (resize_di_ok b n); [exact S|lia..].
    - rewrite (abs_eq (proj1 U)), (slice_set_size _ _ _ S) by lia. destruct (Z.leb_spec c n).
      + rewrite vec_resize_le, (abs_eq S), zfirstn_slice by lia. reflexivity.
      + rewrite vec_resize_gt, Hxl, zfirstn_app_all, (abs_eq S) by (rewrite ?zlen_slice; lia).
        apply slice_split; lia.
  Qed.

  (* assign(count, x) and assign_string: set the size, then write *)
  Lemma set_write_does c ys {b n} : st b n -> zlen ys = c -> all_bytes ys = true -> fits v c = true ->
    does (resize_di v c ;;; b0 <- begin_ v ;; wr b0 ys ;;; ret tt) b n tt c ys.
  Proof.
    intros S Hl Hy Hfit. apply fits_iff in Hfit. pose proof (st_bounds S).
    assert (U1 := upd_set_size c (upd_refl (Z.max n c) S) ltac:(lia)).
    assert (U := upd_splice D ys U1 ltac:(lia) Hy).
    pose proof (upd_zlen U1). destruct U1 as [S1 _].
    eexists. split; [|split; [exact U|]].
    - run resize_di_ok. unfold begin_. run data_checked_ok. run wr_ok. reflexivity.
    - rewrite (abs_eq (proj1 U)). apply slice_splice_at; lia.
  Qed.

  Lemma assign_string_does {b n} ys : st b n -> all_bytes ys = true -> fits v (zlen ys) = true ->
    does (assign_string v ys) b n tt (zlen ys) ys.
  Proof.
    intros S Hy Hfit. pose proof (proj1 (fits_iff _) Hfit). unfold assign_string.
    rewrite (ccast_id T _ (st_T S)) by lia. exact (set_write_does _ ys S eq_refl Hy Hfit).
  Qed.

  (* assign(first, last), assign_range, assign(initializer_list): write, then set the size *)
  Lemma assign_it_does {b n} ys : st b n -> all_bytes ys = true -> fits v (zlen ys) = true ->
    does (assign_it v ys) b n tt (zlen ys) ys.
  Proof.
    intros S Hy Hfit. apply fits_iff in Hfit. pose proof (st_bounds S).
    assert (U1 := upd_splice D ys (upd_refl (Z.max n (zlen ys)) S) ltac:(lia) Hy).
    assert (U := upd_set_size (zlen ys) U1 ltac:(lia)).
    destruct U1 as [S1 _].
    eexists. split; [|split; [exact U|]].
    - unfold assign_it. run data_unchecked_ok. run wr_ok.
      rewrite (ccast_id T _ (st_T S)) by lia. run resize_di_ok. reflexivity.
    - rewrite (abs_eq (proj1 U)), (slice_set_size _ _ _ S1) by lia. apply slice_splice_at; lia.
  Qed.

  Lemma assign_il_does {b n} ys : st b n -> all_bytes ys = true -> fits v (zlen ys) = true ->
    does (assign_il v ys) b n tt (zlen ys) ys.
  Proof.
    intros S Hy Hfit. destruct (assign_it_does ys S Hy Hfit) as (b' & E & UA).
    apply fits_iff in Hfit. pose proof (st_bounds S). exists b'. split; [|exact UA].
    unfold assign_il. rewrite cadd_size_t, bind_lift by lia. run size_check_ok. exact E.
  Qed.

  (* insert through single-pass input iterators: one element at a time *)
  Lemma insert_inp_loop_does : forall ys b n p,
    st b n -> 0 <= p <= n -> all_bytes ys = true -> fits v (n + zlen ys) = true ->
    does (insert_inp_loop v (D + p) ys) b n tt (n + zlen ys) (vec_insert (abs v b) p ys).
  Proof.
    induction ys as [|y r IH]; intros b n p S Hp Hy Hfit; cbn [insert_inp_loop].
    - exists b. change (zlen []) with 0. rewrite vec_insert_nil, Z.add_0_r.
      split; [reflexivity|]. split; [exact (upd_refl _ S)|reflexivity].
    - pose proof (zlen_nonneg r). apply andb_true_iff in Hy. destruct Hy as [Hy Hr].
      rewrite zlen_cons, Z.add_assoc in Hfit. rewrite zlen_cons, Z.add_assoc.
      assert (Hf1 : fits v (n + 1) = true) by (apply fits_iff; apply fits_iff in Hfit; lia).
      destruct (insert_does I32 1 [y] p S ltac:(easy) eq_refl (all_bytes_zrepeat y 1 Hy) Hp Hf1)
        as (b1 & E1 & U1 & A1).
      destruct (IH b1 (n + 1) (p + 1) (proj1 U1) ltac:(lia) Hr Hfit) as (b2 & E2 & U2 & A2).
      exists b2. split; [|split].
      + rewrite (bind_ok _ _ _ _ _ E1), <- (Z.add_assoc D p 1). exact E2.
      + apply (upd_trans _ U1 U2); lia.
      + rewrite A2, A1. apply vec_insert_cons. rewrite (zlen_abs S). exact Hp.
  Qed.

  Lemma insert_inp_does {b n} p ys :
    st b n -> 0 <= p <= n -> all_bytes ys = true -> fits v (n + zlen ys) = true ->
    does (insert_inp v (D + p) ys) b n (D + p) (n + zlen ys) (vec_insert (abs v b) p ys).
  Proof.
    intros S Hp Hy Hfit. destruct (insert_inp_loop_does ys b n p S Hp Hy Hfit) as (b' & E & UA).
    exists b'. split; [|exact UA]. unfold insert_inp. run (in_range_ok Z.leb).
    rewrite (bind_ok _ _ _ _ _ E). reflexivity.
  Qed.

  Definition step_ok (b : list Z) (o : op) : Prop :=
    exists r b', exec v o b = Ok (r, b') /\ wf v b' = true /\
      size_of v b' = new_size (size_of v b) o /\
      (exists fresh, vec_step fresh (abs v b) o = (abs v b', r)) /\
      frame v b b' (Z.max (size_of v b) (new_size (size_of v b) o)).

  Lemma does_void {m : M unit} {b n n' xs} : does m b n tt n' xs -> does (void_ m) b n None n' xs.
  Proof.
    intros (b' & E & H). exists b'. split; [|exact H]. unfold void_.
    rewrite (bind_ok _ _ _ _ _ E). reflexivity.
  Qed.

  Lemma does_iter {m : M Z} {b n p n' xs} :
    does m b n (D + p) n' xs -> does (iter_ v m) b n (Some p) n' xs.
  Proof.
    intros (b' & E & H). exists b'. split; [|exact H]. unfold iter_.
    rewrite (bind_ok _ _ _ _ _ E). unfold ret. rewrite Z.add_simpl_l. reflexivity.
  Qed.

  Lemma step_intro fresh {b n o} : st b n ->
    does (exec v o) b n (snd (vec_step fresh (abs v b) o)) (new_size n o)
      (fst (vec_step fresh (abs v b) o)) ->
    step_ok b o.
  Proof.
    intros S (b' & E & [S' F] & Habs). exists (snd (vec_step fresh (abs v b) o)), b'.
    rewrite (st_sz S), (st_sz S'), Habs. split; [exact E|].
    split; [exact (st_wf S')|]. split; [reflexivity|].
    split; [exists fresh; apply surjective_pairing|exact F].
  Qed.

  Theorem step_correct b o :
    wf v b = true -> valid v (size_of v b) o = true -> step_ok b o.
  Proof.
    intros Hwf. apply wf_st in Hwf. revert Hwf. generalize (size_of v b). intros n S Hv.
    pose proof (st_bounds S) as HS. pose proof (zlen_abs S) as Hxl.
    destruct o as [x| |p|f l|p x|p c x|p ys|p ys|p ys|c|c x|c|c x|ys|ys|ys|ys|];
      cbn [valid] in Hv.
    - (* push_back *)
      apply andb_prop in Hv as [Hx Hfit]. apply (step_intro [] S), does_void, (push_back_does x S Hx Hfit).
    - (* pop_back *)
      apply (step_intro [] S), does_void. cbn [vec_step fst]. rewrite Hxl. apply (pop_back_does S). lia.
    - (* erase(pos) *)
      apply andb_prop in Hv as [Hp0 Hp]. apply (step_intro [] S), does_iter.
      eapply (erase_does _ I32 1 (D + p + 1) p (p + 1) _ S);
        [apply (in_range_ok Z.ltb b n p S); lia|lia|lia|discriminate|lia|lia|reflexivity].
    - (* erase(first, last) *)
      apply andb_prop in Hv as [[Hf0 Hfl]%andb_prop Hln]. apply (step_intro [] S), does_iter.
      eapply (erase_does _ I64 (D + l - (D + f)) (D + l) f l _ S);
        [apply (erase_range_cond_ok b n f l S); lia|lia|lia|discriminate|reflexivity|lia|cbn [new_size]; lia].
    - (* insert(pos, x) *)
      apply andb_prop in Hv as [[[Hp0 Hp]%andb_prop Hx]%andb_prop Hfit]. apply (step_intro [] S), does_iter.
      apply (insert_does I32 1 [x] p S);
        [discriminate|reflexivity|exact (all_bytes_zrepeat x 1 Hx)|lia|exact Hfit].
    - (* insert(pos, count, x) *)
      apply andb_prop in Hv as [[[[Hp0 Hp]%andb_prop Hc]%andb_prop Hx]%andb_prop Hfit].
      apply (step_intro [] S), does_iter.
      apply (insert_does T c (zrepeat x c) p S);
        [reflexivity|rewrite zlen_zrepeat; lia|exact (all_bytes_zrepeat x c Hx)|lia|exact Hfit].
    - (* insert(pos, first, last), forward iterators *)
      apply andb_prop in Hv as [[[Hp0 Hp]%andb_prop Hy]%andb_prop Hfit]. apply (step_intro [] S), does_iter.
      apply (insert_does I64 (zlen ys) ys p S); [discriminate|reflexivity|exact Hy|lia|exact Hfit].
    - (* insert(pos, first, last), input iterators *)
      apply andb_prop in Hv as [[[Hp0 Hp]%andb_prop Hy]%andb_prop Hfit]. apply (step_intro [] S), does_iter.
      apply (insert_inp_does p ys S); [lia|exact Hy|exact Hfit].
    - (* insert(pos, initializer_list) runs the code for forward iterators *)
      apply andb_prop in Hv as [[[Hp0 Hp]%andb_prop Hy]%andb_prop Hfit]. apply (step_intro [] S), does_iter.
      apply (insert_does I64 (zlen ys) ys p S); [discriminate|reflexivity|exact Hy|lia|exact Hfit].
    - (* resize(count) *)
      apply (step_intro [] S), does_void, (resize_val_does c 0 [] S eq_refl Hv).
      symmetry. apply firstn_all2. cbn [app]. unfold zrepeat. rewrite repeat_length. lia.
    - (* resize(count, x) *)
      apply andb_prop in Hv as [Hx Hfit].
      apply (step_intro [] S), does_void, (resize_val_does c x (zrepeat x c) S Hx Hfit).
      symmetry. apply zfirstn_zrepeat. lia.
    - (* resize(count, default_init) *)
      apply fits_iff in Hv. apply (step_intro (slice b (D + n) (c - n)) S), does_void, (resize_di_does c S); lia.
    - (* assign(count, x) *)
      apply andb_prop in Hv as [Hx Hfit]. pose proof (proj1 (fits_iff c) Hfit).
      apply (step_intro [] S), does_void, (set_write_does c (zrepeat x c) S);
        [rewrite zlen_zrepeat; lia|exact (all_bytes_zrepeat x c Hx)|exact Hfit].
    - (* assign(first, last) *)
      apply andb_prop in Hv as [Hy Hfit]. apply (step_intro [] S), does_void, (assign_it_does ys S Hy Hfit).
    - (* assign(initializer_list) *)
      apply andb_prop in Hv as [Hy Hfit]. apply (step_intro [] S), does_void, (assign_il_does ys S Hy Hfit).
    - (* assign_string *)
      apply andb_prop in Hv as [[Hy _]%andb_prop Hfit].
      apply (step_intro [] S), does_void, (assign_string_does ys S Hy Hfit).
    - (* assign_range runs the code of assign(first, last) *)
      apply andb_prop in Hv as [Hy Hfit]. apply (step_intro [] S), does_void, (assign_it_does ys S Hy Hfit).
    - (* clear *)
      pose proof (resize_di_does 0 S) as R. rewrite vec_resize_le in R by lia.
      apply (step_intro [] S), does_void, R; lia.
  Qed.
End View.

Lemma step_refines v b o :
  wf v b = true -> valid v (size_of v b) o = true ->
  exists r b' fresh, exec v o b = Ok (r, b') /\ wf v b' = true /\
    vec_step fresh (abs v b) o = (abs v b', r).
Proof.
  intros Hwf Hv. destruct (step_correct v b o Hwf Hv) as (r & b' & Hex & Hwf' & _ & [fresh Hvec] & _).
  exists r, b', fresh. auto.
Qed.

Lemma step_frame v b o r b' :
  wf v b = true -> valid v (size_of v b) o = true -> exec v o b = Ok (r, b') ->
  size_of v b' = new_size (size_of v b) o /\
  frame v b b' (Z.max (size_of v b) (new_size (size_of v b) o)).
Proof.
  intros Hwf Hv Hex. destruct (step_correct v b o Hwf Hv) as (r1 & b1 & Hex1 & _ & Hsz & _ & Hfr).
  rewrite Hex in Hex1. injection Hex1 as -> ->. auto.
Qed.

Lemma no_spurious_assert v b o :
  wf v b = true -> valid v (size_of v b) o = true ->
  exec v o b <> AssertFail /\ exec v o b <> Fault.
Proof.
  intros Hwf Hv. destruct (step_correct v b o Hwf Hv) as (r & b' & Hex & _).
  rewrite Hex. split; discriminate.
Qed.

Lemma erase_to_end_ok v b f :
  wf v b = true -> 0 <= f <= size_of v b ->
  exists b', exec v (EraseR f (size_of v b)) b = Ok (Some f, b') /\ wf v b' = true /\
    abs v b' = zfirstn f (abs v b) /\ size_of v b' = f.
Proof.
  intros Hwf Hf.
  assert (Hv : valid v (size_of v b) (EraseR f (size_of v b)) = true) by (cbn [valid]; lia).
  destruct (step_correct v b _ Hwf Hv) as (r & b' & Hex & Hwf' & Hsz & [fresh Hvec] & _).
  cbn [vec_step new_size] in Hvec, Hsz. injection Hvec as Habs Hr. subst r.
  exists b'. split; [exact Hex|]. split; [exact Hwf'|]. split; [|lia].
  rewrite <- Habs, (zskipn_all _ _ (zlen_abs v (wf_st v b Hwf))). apply app_nil_r.
Qed.

Lemma fresh_irrelevant f1 f2 xs o :
  (forall c, o = ResizeDI c -> c <= zlen xs) -> vec_step f1 xs o = vec_step f2 xs o.
Proof.
  intros H. destruct o; try reflexivity. cbn [vec_step].
  rewrite !vec_resize_le by exact (H count eq_refl). reflexivity.
Qed.

Lemma peak_size_ge n ops : n <= peak_size n ops.
Proof. destruct ops; cbn [peak_size]; lia. Qed.

Lemma seq_refines v : forall ops b,
  wf v b = true -> seq_valid v (size_of v b) ops = true ->
  exists rs b' oracle, exec_seq (exec v) ops b = Ok (rs, b') /\ wf v b' = true /\
    vec_run oracle (abs v b) ops = (abs v b', rs) /\
    frame v b b' (peak_size (size_of v b) ops).
Proof.
  induction ops as [|o r IH]; intros b Hwf Hv.
  - exists [], b, []. split; [reflexivity|]. split; [exact Hwf|]. split; [reflexivity|].
    apply frame_refl.
  - cbn [seq_valid] in Hv. apply andb_true_iff in Hv. destruct Hv as [Hv1 Hv2].
    destruct (step_correct v b o Hwf Hv1) as (x & b1 & Hex & Hwf1 & Hsz1 & [fresh Hvec] & Hfr1).
    rewrite <- Hsz1 in Hv2, Hfr1.
    destruct (IH b1 Hwf1 Hv2) as (rs & b2 & oracle & Hex2 & Hwf2 & Hvec2 & Hfr2).
    exists (x :: rs), b2, (fresh :: oracle).
    split; [cbn [exec_seq]; rewrite (bind_ok _ _ _ _ _ Hex), (bind_ok _ _ _ _ _ Hex2); reflexivity|].
    split; [exact Hwf2|]. split; [cbn [vec_run hd tl]; rewrite Hvec, Hvec2; reflexivity|].
    cbn [peak_size]. rewrite <- Hsz1. apply (frame_trans v b b1 b2 _ _ _ Hfr1 Hfr2).
    + apply Z.max_le_compat_l, peak_size_ge.
    + apply Z.le_max_r.
Qed.

Definition ex_view := mkView U16 true 2 8 true.
Definition ex_buf := [9; 9; 0; 3; 65; 66; 67; 1; 2; 3; 7; 7].

Example C13_step_refines_nonvacuous :
  wf ex_view ex_buf = true /\ valid ex_view (size_of ex_view ex_buf) (Insert1 1 70) = true /\
  exec ex_view (Insert1 1 70) ex_buf = Ok (Some 1, [9; 9; 0; 4; 65; 70; 66; 67; 2; 3; 7; 7]) /\
  vec_step [] (abs ex_view ex_buf) (Insert1 1 70) = ([65; 70; 66; 67], Some 1).
Proof. vm_compute. repeat split. Qed.

Example C13_step_frame_nonvacuous :
  wf ex_view ex_buf = true /\ valid ex_view (size_of ex_view ex_buf) (EraseR 1 3) = true /\
  exec ex_view (EraseR 1 3) ex_buf = Ok (Some 1, [9; 9; 0; 1; 65; 66; 67; 1; 2; 3; 7; 7]).
Proof. vm_compute. repeat split. Qed.

Example C13_no_spurious_assert_nonvacuous :
  wf ex_view ex_buf = true /\ valid ex_view (size_of ex_view ex_buf) (ResizeDI 5) = true /\
  wf (mkView U8 false 0 4 false) [3; 1; 2; 3] = true /\
  valid (mkView U8 false 0 4 false) 3 PopBack = true.
Proof. vm_compute. repeat split. Qed.

Example C13_erase_to_end_nonvacuous :
  wf ex_view ex_buf = true /\ 0 <= 1 <= size_of ex_view ex_buf.
Proof. vm_compute. repeat split; discriminate. Qed.

Definition ex_ops :=
  [PushBack 1; Insert1 0 2; EraseR 1 5; InsertInp 1 [8; 9]; ResizeDI 6; PopBack; Erase1 0;
   AssignStr [70; 71]; InsertN 2 2 5; Resize 1; AssignIl [1; 2; 3]; InsertFwd 3 [4]; Clear].

Example C13_sequence_refines_nonvacuous :
  wf ex_view ex_buf = true /\ seq_valid ex_view (size_of ex_view ex_buf) ex_ops = true /\
  peak_size (size_of ex_view ex_buf) ex_ops = 6 /\
  exists rs, exec_seq (exec ex_view) ex_ops ex_buf = Ok (rs, [9; 9; 0; 0; 1; 2; 3; 4; 1; 3; 7; 7]).
Proof. vm_compute. repeat split. eexists. reflexivity. Qed.

(* the unfixed assertion `first >= begin() && last < end()` rejects the
   vector-valid call erase(first, end()) *)
Example C13_legacy_erase_to_end_refuted :
  wf ex_view ex_buf = true /\ valid ex_view (size_of ex_view ex_buf) (EraseR 1 3) = true /\
  Legacy.exec ex_view (EraseR 1 3) ex_buf = AssertFail /\
  Legacy.exec ex_view (EraseR 3 3) ex_buf = AssertFail.
Proof. vm_compute. repeat split. Qed.
