(* CheckedProofs.v — C06: exactness of size_bytes_checked (statement in
   ScriptSpec.v).

   stmt_checked_exact is refuted in ScriptCounterexamples.v: the buffer is an
   arbitrary [list Z], and on a "byte" outside [0,256) a header value decodes
   to a negative number, for which the flat-group test of the visitor (a
   division) and the exact arithmetic of [fit_groups] disagree.
   [stmt_checked_exact'] is that statement with [bytes_ok b = true]. *)
From Coq Require Import ZArith List Bool Lia.
From Sbepp Require Import CInt Bytes BytesFacts Msg MsgSpec MsgProofs Cursor CursorSpec CursorProofs
  Checked ScriptSpec.
Import ListNotations.
Local Open Scope Z_scope.

Definition stmt_checked_exact' : Prop :=
  forall be b m cl fuel,
    bytes_ok b = true ->                       (* <- the added hypothesis *)
    is_signed (m_bl_t m) = false ->
    0 <= m_bl_off m -> m_bl_off m + tbytes (m_bl_t m) <= m_hdr_size m ->
    wf_table_level (m_level m) -> wf_clevel (m_hdr_size m) (m_level m) cl ->
    len b < 2 ^ 63 -> (length b < fuel)%nat ->
    match size_bytes_checked be b fuel m cl with
    | CkValid s _ => described_fit be b m = Some s
    | CkInvalid _ => described_fit be b m = None
    | CkOob _ _ _ => True
    | CkFuel => True
    end.

(* the flat-group test of validate_entries is the exact comparison *)
Lemma flat_check r bl n : 0 <= r -> 0 <= bl -> 0 <= n ->
  negb (bl =? 0) && (r / bl <? n) = (r <? n * bl).
Proof.
  intros Hr Hbl Hn. destruct (Z.eqb_spec bl 0) as [->|Hne]; cbn [negb andb].
  - symmetry. apply Z.ltb_ge. lia.
  - assert (Hpos : 0 < bl) by lia.
    destruct (Z.ltb_spec (r / bl) n) as [H1|H1]; destruct (Z.ltb_spec r (n * bl)) as [H2|H2];
      try reflexivity; exfalso.
    + assert (n <= r / bl) by (apply Z.div_le_lower_bound; lia). lia.
    + assert (r / bl < n) by (apply Z.div_lt_upper_bound; lia). lia.
Qed.

Definition kbind (o : ckout) (k : ck -> ckout) : ckout :=
  match o with
  | KOk s => k s
  | KInvalid st => KInvalid st
  | KOob kind off st => KOob kind off st
  | KFuel => KFuel
  end.

(* where the next group or data member of a level is looked for: the first one
   right after the block, every later one at the cursor *)
Definition dyn_pos (v : lview) (first : bool) (s : ck) : Z :=
  if first then block_end v else ck_c s.

Inductive validate_spec (s : ck) (n : Z) : ckout -> Prop :=
| ValidateOk s' : n <= ck_rem s -> ck_rem s' = ck_rem s - n -> ck_c s' = ck_c s ->
    ck_steps s' = ck_steps s -> validate_spec s n (KOk s')
| ValidateBad : ck_rem s < n -> validate_spec s n (KInvalid (ck_steps s)).

Lemma validateP s n : validate_spec s n (validate s n).
Proof. unfold validate. destruct (Z.ltb_spec (ck_rem s) n); constructor; trivial. Qed.

Inductive touch_spec (kind : Z) (b : list Z) (off w : Z) (s : ck) : option ckout -> Prop :=
| TouchOob o : touch_spec kind b off w s (Some (KOob kind o (ck_steps s)))
| TouchIn : 0 <= off -> off + w <= len b -> touch_spec kind b off w s None.

Lemma touchP kind b off w s : touch_spec kind b off w s (touch kind b off w s).
Proof.
  unfold touch. destruct (Z.leb_spec 0 off), (Z.leb_spec (off + w) (len b));
    constructor; assumption.
Qed.

Lemma ck_datas_cons be b v t r first s :
  ck_datas be b v (t :: r) first s =
  let p := dyn_pos v first s in
  match touch 2 b p (tbytes t) s with
  | Some bad => bad
  | None =>
    let n := dec be (slice b p (tbytes t)) in
    kbind (validate (tick (set_c s (p + (tbytes t + n) mod 2 ^ 64))) (tbytes t)) (fun s1 =>
    kbind (validate s1 n) (ck_datas be b v r false))
  end.
Proof. reflexivity. Qed.

Lemma ck_level_eq be b fuel fs gs ds cl v s :
  ck_level be b fuel (Level fs gs ds) cl v s =
  kbind (ck_fields b v (clevel_fields cl) s) (fun s1 =>
  kbind (ck_groups be b fuel gs (clevel_groups cl) v true s1)
        (ck_datas be b v ds (groups_empty gs))).
Proof. reflexivity. Qed.

(* on_entry at the cursor: validate blockLength, then the entry's children *)
Definition ck_entry (be : bool) (b : list Z) (fuel : nat) (l : level) (cl : clevel) (bl : Z)
  (s : ck) (K : ck -> ckout) : ckout :=
  kbind (validate (tick (if is_empty_level l cl then set_c s (ck_c s + bl) else s)) bl) (fun s2 =>
  kbind (ck_level be b fuel l cl
           {| lv_start := ck_c s; lv_level := ck_c s; lv_bl := bl; lv_end := len b |} s2) K).

(* the entry loop of on_group: the anonymous [fix] of [ck_groups], named *)
Definition ck_entries (be : bool) (b : list Z) (fuel : nat) (l : level) (cl : clevel) (bl : Z)
  : nat -> Z -> ck -> ckout :=
  fix loop (j : nat) (n : Z) (s : ck) {struct j} : ckout :=
    if n <=? 0 then KOk s else
    match j with
    | O => KFuel
    | S j' => ck_entry be b fuel l cl bl s (loop j' (n - 1))
    end.

Lemma ck_entries_eq be b fuel l cl bl j n s :
  ck_entries be b fuel l cl bl j n s =
  if n <=? 0 then KOk s else
  match j with
  | O => KFuel
  | S j' => ck_entry be b fuel l cl bl s (ck_entries be b fuel l cl bl j' (n - 1))
  end.
Proof. destruct j; reflexivity. Qed.

(* what on_group does once the dimension is validated and read *)
Definition ck_group_body (be : bool) (b : list Z) (fuel : nat) (d : dim) (l : level) (cl : clevel)
  (p : Z) (s1 : ck) : ckout :=
  let bl := dec be (slice b (p + d_bl_off d) (tbytes (d_bl_t d))) in
  let n := dec be (slice b (p + d_n_off d) (tbytes (d_n_t d))) in
  if is_flat l then
    if negb (bl =? 0) && (ck_rem s1 / bl <? n) then KInvalid (ck_steps s1)
    else KOk {| ck_rem := ck_rem s1 - n * bl; ck_c := ck_c s1 + n * bl; ck_steps := ck_steps s1 |}
  else ck_entries be b fuel l cl bl fuel n s1.

Lemma ck_groups_cons be b fuel d cbl l rest cl crest v first s :
  ck_groups be b fuel (GCons d cbl l rest) (CGCons cl crest) v first s =
  let p := dyn_pos v first s in
  kbind (validate (tick (set_c s (p + d_size d))) (d_size d)) (fun s1 =>
    match touch 3 b (p + d_bl_off d) (tbytes (d_bl_t d)) s1,
          touch 3 b (p + d_n_off d) (tbytes (d_n_t d)) s1 with
    | Some bad, _ => bad
    | _, Some bad => bad
    | None, None =>
      kbind (ck_group_body be b fuel d l cl p s1) (ck_groups be b fuel rest crest v false)
    end).
Proof. reflexivity. Qed.

Definition to_ckres (n : Z) (o : ckout) : ckres :=
  match o with
  | KOk s => CkValid (n - ck_rem s) (ck_steps s)
  | KInvalid st => CkInvalid st
  | KOob k off st => CkOob k off st
  | KFuel => CkFuel
  end.

(* the second validate of the entry point repeats the test made before it *)
Lemma size_bytes_checked_eq be b fuel m cl :
  size_bytes_checked be b fuel m cl =
  let bl := dec be (slice b (m_bl_off m) (tbytes (m_bl_t m))) in
  if len b <? m_hdr_size m then CkInvalid 0 else
  if len b - m_hdr_size m <? bl then CkInvalid 0 else
  to_ckres (len b)
    (ck_level be b fuel (m_level m) cl
       {| lv_start := 0; lv_level := m_hdr_size m; lv_bl := bl; lv_end := len b |}
       {| ck_rem := len b - m_hdr_size m - bl; ck_c := m_hdr_size m; ck_steps := 0 |}).
Proof.
  unfold size_bytes_checked, validate. cbn [ck_rem ck_c ck_steps].
  destruct (len b <? m_hdr_size m); [reflexivity|]. cbn [ck_rem ck_c ck_steps].
  destruct (len b - m_hdr_size m <? _); reflexivity.
Qed.

(* the entry loop of [fit_groups], named *)
Definition fit_entries (be : bool) (b : list Z) (fuel : nat) (l : level) (bl : Z)
  : nat -> Z -> Z -> option Z :=
  fix loop (k : nat) (n pos : Z) {struct k} : option Z :=
    if n <=? 0 then Some pos else
    if len b <? pos + bl then None else
    match k with
    | O => None
    | S k' => obind (fit_level be b fuel l pos bl) (loop k' (n - 1))
    end.

Lemma fit_entries_eq be b fuel l bl k n pos :
  fit_entries be b fuel l bl k n pos =
  if n <=? 0 then Some pos else
  if len b <? pos + bl then None else
  match k with
  | O => None
  | S k' => obind (fit_level be b fuel l pos bl) (fit_entries be b fuel l bl k' (n - 1))
  end.
Proof. destruct k; reflexivity. Qed.

Lemma fit_groups_cons be b fuel d cbl l rest pos :
  fit_groups be b fuel (GCons d cbl l rest) pos =
  if negb (in_buf b pos (d_size d)) then None else
  obind (rd be b (pos + d_bl_off d) (d_bl_t d)) (fun bl =>
  obind (rd be b (pos + d_n_off d) (d_n_t d)) (fun n =>
  obind
    (if is_flat l
     then (if pos + d_size d + n * bl <=? len b then Some (pos + d_size d + n * bl) else None)
     else fit_entries be b fuel l bl fuel n (pos + d_size d))
    (fit_groups be b fuel rest))).
Proof. reflexivity. Qed.

Lemma is_empty_level_nonflat l cl : is_flat l = false -> is_empty_level l cl = false.
Proof. intros H. unfold is_empty_level. destruct (clevel_fields cl); [exact H|reflexivity]. Qed.

Section Exact.
  Variables (be : bool) (b : list Z).
  Hypothesis Hok : bytes_ok b = true.
  (* the bound of the statement; all that is used of it is that [tbytes t + n]
     with [n <= len b] does not wrap modulo 2^64 (in [ck_datas_rel]) *)
  Hypothesis Hlen : len b < 2 ^ 63.

  Lemma val_nonneg off w : 0 <= dec be (slice b off w).
  Proof. apply (dec_bound be), bytes_ok_slice, Hok. Qed.

  (* the described structure does not fit *)
  Definition bad (r : option Z) : Prop :=
    match r with None => True | Some e => len b < e end.

  (* the visitor has accounted for exactly the bytes before [p], where it will
     look for the next member of the level viewed by [v] *)
  Definition synced (v : lview) (first : bool) (s : ck) (p : Z) : Prop :=
    dyn_pos v first s = p /\ 0 <= p <= len b /\ ck_rem s = len b - p.

  (* outcome of a part of the visit against the declarative walk of the same
     part: both end at the same position, not before [lo] *)
  Definition rel (v : lview) (first : bool) (lo : Z) (out : ckout) (res : option Z) : Prop :=
    match out with
    | KOk s' => exists e, res = Some e /\ lo <= e /\ synced v first s' e
    | KInvalid _ => bad res
    | _ => True
    end.

  Lemma rel_ret v first s p : synced v first s p -> rel v first p (KOk s) (Some p).
  Proof. intros H. exists p. split; [reflexivity|]. split; [lia|exact H]. Qed.

  Lemma rel_mono v first lo lo' out res :
    rel v first lo' out res -> lo <= lo' -> rel v first lo out res.
  Proof.
    destruct out; cbn [rel]; trivial. intros (e & Hr & Hlo & Hs) H. exists e. split; [exact Hr|].
    split; [lia|exact Hs].
  Qed.

  (* once the cursor is where the next member is looked for, the view is immaterial *)
  Lemma rel_false v v' lo out res : rel v false lo out res -> rel v' false lo out res.
  Proof. exact (fun H => H). Qed.

  Lemma rel_bind v first1 first lo1 lo out1 res1 (K : ck -> ckout) (f : Z -> option Z) :
    rel v first1 lo1 out1 res1 ->
    (forall s e, lo1 <= e -> synced v first1 s e -> rel v first lo (K s) (f e)) ->
    (forall e, len b < e -> bad (f e)) ->
    rel v first lo (kbind out1 K) (obind res1 f).
  Proof.
    intros H1 H2 Hbad. destruct out1 as [s1|st|kk o st|]; cbn [rel kbind] in *; trivial.
    - destruct H1 as (e1 & -> & Hlo & Hs). apply H2; assumption.
    - destruct res1; cbn [obind bad] in *; [apply Hbad, H1|exact I].
  Qed.

  Lemma fit_datas_bad : forall ds pos, len b < pos -> bad (fit_datas be b ds pos).
  Proof.
    intros [|t r] pos H; cbn [fit_datas bad]; [exact H|]. unfold rd.
    destruct (in_buf b pos (tbytes t)) eqn:E; [apply in_buf_iff in E; lia|exact I].
  Qed.

  Lemma fit_groups_bad fuel : forall gs pos, len b < pos -> bad (fit_groups be b fuel gs pos).
  Proof.
    intros [|d cbl l rest] pos H; [exact H|]. rewrite fit_groups_cons.
    destruct (in_buf b pos (d_size d)) eqn:E; cbn [negb]; [|exact I].
    apply in_buf_iff in E. lia.
  Qed.

  Lemma fit_entries_bad fuel l bl k n pos : 0 <= bl -> len b < pos ->
    bad (fit_entries be b fuel l bl k n pos).
  Proof.
    intros Hbl H. rewrite fit_entries_eq. destruct (n <=? 0); [exact H|].
    destruct (Z.ltb_spec (len b) (pos + bl)); [exact I|lia].
  Qed.

  Lemma ck_fields_spec v : forall al s,
    match ck_fields b v al s with
    | KOk s1 => ck_rem s1 = ck_rem s
    | KOob _ _ _ => True
    | _ => False
    end.
  Proof.
    induction al as [|a r IH]; intros s; cbn [ck_fields]; [reflexivity|].
    destruct (ca_view a); [|destruct (touchP 1 b (ck_c s + ca_rel a) (ca_size a) s); [exact I|]];
      apply (IH (tick (set_c s _))).
  Qed.

  Lemma ck_datas_rel v : forall ds first s p0, synced v first s p0 ->
    rel v (first && datas_empty ds) (p0 + if datas_empty ds then 0 else 1)
      (ck_datas be b v ds first s) (fit_datas be b ds p0).
  Proof.
    induction ds as [|t r IH]; intros first s p0 Hs; cbn [datas_empty fit_datas].
    - rewrite andb_true_r, Z.add_0_r. apply rel_ret, Hs.
    - destruct Hs as (Hp & Hb & Hrem). rewrite ck_datas_cons, Hp, andb_false_r. cbv zeta.
      pose proof (tbytes_pos t) as Ht.
      destruct (touchP 2 b p0 (tbytes t) s) as [o|H1 H2]; [exact I|].
      rewrite rd_in by lia. cbn [obind].
      pose proof (val_nonneg p0 (tbytes t)) as Hn.
      set (n := dec be (slice b p0 (tbytes t))) in *.
      destruct (validateP (tick (set_c s (p0 + (tbytes t + n) mod 2 ^ 64))) (tbytes t))
        as [s1 _ Hr1 Hc1 _|Hlt]; cbn [kbind tick set_c ck_rem ck_c] in *; [|lia].
      destruct (validateP s1 n) as [s2 Hge Hr2 Hc2 _|Hlt]; cbn [kbind rel].
      + rewrite Z.mod_small in Hc1 by lia.
        eapply rel_mono; [apply (IH false s2 (p0 + tbytes t + n))|destruct (datas_empty r); lia].
        repeat split; cbn [dyn_pos]; lia.
      + apply fit_datas_bad. lia.
  Qed.

  (* two fuels: the declarative walk needs [length b < fuel1] to get through; the
     visitor may have any [fuel2], since running out of it ([KFuel]) satisfies [rel] *)
  Definition exact_level (l : level) : Prop :=
    forall cl hdr v s fuel1 fuel2,
      wf_table_level l -> wf_clevel hdr l cl -> (length b < fuel1)%nat ->
      synced v true s (block_end v) ->
      rel v (is_flat l) (block_end v + if is_flat l then 0 else 1)
          (ck_level be b fuel2 l cl v s)
          (fit_level be b fuel1 l (lv_level v) (lv_bl v)).

  Definition exact_groups (gs : groups) : Prop :=
    forall cgs v (first : bool) s fuel1 fuel2 p0,
      wf_table_groups gs -> wf_cgroups gs cgs -> (length b < fuel1)%nat ->
      synced v first s p0 ->
      rel v (first && groups_empty gs) (p0 + if groups_empty gs then 0 else 1)
          (ck_groups be b fuel2 gs cgs v first s)
          (fit_groups be b fuel1 gs p0).

  Lemma level_step fs gs ds : exact_groups gs -> exact_level (Level fs gs ds).
  Proof.
    intros IHg [al cgs] hdr v s fuel1 fuel2 (_ & _ & Hwg) [_ Hcg] Hf1 (_ & Hb & Hrem).
    rewrite ck_level_eq. cbn [fit_level clevel_fields clevel_groups]. unfold block_end in *.
    pose proof (ck_fields_spec v al s) as Hf.
    destruct (ck_fields b v al s) as [s1|?|?|]; try contradiction; [|exact I].
    unfold is_flat. cbn [kbind level_groups level_datas].
    eapply rel_bind; [|intros s2 e1 He1 Hs2|apply fit_datas_bad].
    - apply (IHg cgs v true s1 fuel1 fuel2 _ Hwg Hcg Hf1). split; [reflexivity|lia].
    - eapply rel_mono; [apply ck_datas_rel, Hs2|].
      destruct (groups_empty gs), (datas_empty ds); cbn [andb]; lia.
  Qed.

  (* entries of a nested group, given the statement for the entry level; every
     entry ends at least one byte further, so [k] rounds of the declarative
     loop suffice when the buffer ends before [p + k] *)
  Lemma entries_rel l cl bl fuel1 fuel2 :
    exact_level l -> wf_table_level l -> wf_clevel 0 l cl -> is_flat l = false -> 0 <= bl ->
    (length b < fuel1)%nat ->
    forall j k n v s p, synced v false s p -> len b < p + Z.of_nat k ->
      rel v false p (ck_entries be b fuel2 l cl bl j n s) (fit_entries be b fuel1 l bl k n p).
  Proof.
    intros IHl Hwl Hcl Hfl Hbl Hf1.
    induction j as [|j IHj]; intros k n v s p Hs Hk; rewrite ck_entries_eq, fit_entries_eq;
      (destruct (n <=? 0); [apply rel_ret, Hs|]); [exact I|].
    destruct Hs as (Hp & Hb & Hrem). cbn [dyn_pos] in Hp. unfold ck_entry.
    rewrite (is_empty_level_nonflat l cl Hfl), Hp.
    destruct (validateP (tick s) bl) as [s2 Hge Hr2 Hc2 _|Hlt]; cbn [kbind tick ck_rem ck_c] in *;
      destruct (Z.ltb_spec (len b) (p + bl)); [lia| |exact I|lia].
    destruct k as [|k]; [lia|].
    set (ev := {| lv_start := p; lv_level := p; lv_bl := bl; lv_end := len b |}).
    apply (rel_false ev).
    eapply rel_bind; [|intros s3 e He Hs3|intros e He; apply fit_entries_bad; assumption].
    - apply (IHl cl 0 ev s2 fuel1 fuel2 Hwl Hcl Hf1). change (block_end ev) with (p + bl).
      split; [reflexivity|lia].
    - rewrite Hfl in He, Hs3. change (block_end ev) with (p + bl) in He.
      eapply rel_mono; [apply (IHj k _ _ _ _ Hs3)|]; lia.
  Qed.

  (* what on_group does after the dimension of the group at [p], against the
     entries part of [fit_groups] *)
  Lemma group_body_rel d l cl fuel1 fuel2 p v s1 :
    exact_level l -> wf_table_level l -> wf_clevel 0 l cl -> (length b < fuel1)%nat ->
    synced v false s1 (p + d_size d) ->
    let bl := dec be (slice b (p + d_bl_off d) (tbytes (d_bl_t d))) in
    let n := dec be (slice b (p + d_n_off d) (tbytes (d_n_t d))) in
    rel v false (p + d_size d) (ck_group_body be b fuel2 d l cl p s1)
      (if is_flat l
       then (if p + d_size d + n * bl <=? len b then Some (p + d_size d + n * bl) else None)
       else fit_entries be b fuel1 l bl fuel1 n (p + d_size d)).
  Proof.
    intros IHl Hwl Hcl Hf1 Hs bl n. unfold ck_group_body. fold bl n.
    assert (Hbl : 0 <= bl) by apply val_nonneg. assert (Hn : 0 <= n) by apply val_nonneg.
    pose proof Hs as (Hp & Hb & Hrem). cbn [dyn_pos] in Hp.
    destruct (is_flat l) eqn:Hfl.
    - rewrite flat_check by lia.
      assert (Hnb : 0 <= n * bl) by (apply Z.mul_nonneg_nonneg; assumption).
      destruct (Z.ltb_spec (ck_rem s1) (n * bl)), (Z.leb_spec (p + d_size d + n * bl) (len b));
        [lia|exact I| |lia].
      eexists. split; [reflexivity|]. repeat split; cbn [dyn_pos ck_c ck_rem]; lia.
    - apply entries_rel; try assumption. unfold len in *. lia.
  Qed.

  Lemma groups_step d cbl l rest : exact_level l -> exact_groups rest -> exact_groups (GCons d cbl l rest).
  Proof.
    intros IHl IHr [|cl crest] v first s fuel1 fuel2 p0 (Hd & _ & Hwl & Hwr) Hwc Hf1 Hs;
      [contradiction|].
    destruct Hs as (Hp & Hb & Hrem). destruct Hwc as [Hcl Hcr].
    destruct Hd as (_ & _ & Hbo & Hbe & Hno & Hne & _).
    pose proof (tbytes_pos (d_bl_t d)). pose proof (tbytes_pos (d_n_t d)).
    rewrite ck_groups_cons, fit_groups_cons, Hp, andb_false_r. cbv zeta.
    destruct (validateP (tick (set_c s (p0 + d_size d))) (d_size d)) as [s1 Hge Hr1 Hc1 _|Hlt];
      cbn [kbind tick set_c ck_rem ck_c groups_empty] in *.
    - rewrite (proj2 (in_buf_iff _ _ _)) by lia. cbn [negb].
      destruct (touchP 3 b (p0 + d_bl_off d) (tbytes (d_bl_t d)) s1); [exact I|].
      destruct (touchP 3 b (p0 + d_n_off d) (tbytes (d_n_t d)) s1); [exact I|].
      rewrite !rd_in by lia. cbn [obind].
      eapply rel_bind; [|intros s2 e He Hs2|apply fit_groups_bad].
      + apply group_body_rel; try assumption. repeat split; cbn [dyn_pos]; lia.
      + eapply rel_mono; [apply (IHr crest v false s2 fuel1 fuel2 e Hwr Hcr Hf1 Hs2)|].
        destruct (groups_empty rest); lia.
    - destruct (in_buf b p0 (d_size d)) eqn:E; [apply in_buf_iff in E; lia|exact I].
  Qed.

  Lemma exact_all : (forall l, exact_level l) /\ (forall gs, exact_groups gs).
  Proof.
    apply level_groups_ind.
    - intros fs gs IH ds. apply level_step, IH.
    - intros cgs v first s fuel1 fuel2 p0 _ _ _ Hs. cbn [groups_empty].
      rewrite andb_true_r, Z.add_0_r. apply rel_ret, Hs.
    - intros d cbl l IHl rest IHr. apply groups_step; assumption.
  Qed.
End Exact.

(* the verdict is exact whatever the signedness of blockLength and whatever the
   fuel: running out of it is one of the outcomes about which nothing is claimed *)
Theorem checked_exact be b m cl fuel :
  bytes_ok b = true ->
  0 <= m_bl_off m -> m_bl_off m + tbytes (m_bl_t m) <= m_hdr_size m ->
  wf_table_level (m_level m) -> wf_clevel (m_hdr_size m) (m_level m) cl -> len b < 2 ^ 63 ->
  match size_bytes_checked be b fuel m cl with
  | CkValid s _ => described_fit be b m = Some s
  | CkInvalid _ => described_fit be b m = None
  | _ => True
  end.
Proof.
  intros Hok Hbo Hbe Hwt Hwc Hlen.
  pose proof (tbytes_pos (m_bl_t m)) as Ht.
  pose proof (val_nonneg be b Hok (m_bl_off m) (tbytes (m_bl_t m))) as Hbl.
  rewrite size_bytes_checked_eq. unfold described_fit. cbv zeta.
  destruct (Z.ltb_spec (len b) (m_hdr_size m)) as [Hlt|Hge].
  { destruct (in_buf b 0 (m_hdr_size m)) eqn:E; [apply in_buf_iff in E; lia|reflexivity]. }
  rewrite (proj2 (in_buf_iff _ _ _)), (rd_in be b) by lia. cbn [negb obind].
  set (bl := dec be (slice b (m_bl_off m) (tbytes (m_bl_t m)))) in *.
  destruct (Z.ltb_spec (len b - m_hdr_size m) bl) as [Hlt|Hge2].
  { destruct (fit_level _ _ _ _ _ _) as [e|]; cbn [obind]; [|reflexivity].
    destruct (Z.leb_spec (m_hdr_size m + bl) (len b)); [lia|reflexivity]. }
  set (v := {| lv_start := 0; lv_level := m_hdr_size m; lv_bl := bl; lv_end := len b |}).
  set (s := {| ck_rem := len b - m_hdr_size m - bl; ck_c := m_hdr_size m; ck_steps := 0 |}).
  assert (H : synced b v true s (m_hdr_size m + bl)) by (split; [reflexivity|cbn; lia]).
  apply (proj1 (exact_all be b Hok Hlen) (m_level m) cl (m_hdr_size m) v s (S (length b)) fuel
           Hwt Hwc (Nat.lt_succ_diag_r _)) in H.
  cbn [block_end v lv_level lv_bl] in H.
  destruct (ck_level _ _ _ _ _ _ _) as [s3|st|k o st|]; cbn [to_ckres rel] in *; trivial.
  - destruct H as (e & -> & _ & _ & Hb & Hrem). cbn [obind].
    destruct (Z.leb_spec (m_hdr_size m + bl) (len b)), (Z.leb_spec e (len b)); [|lia..].
    cbn [andb]. f_equal. lia.
  - destruct (fit_level _ _ _ _ _ _) as [e|]; cbn [obind]; [|reflexivity].
    destruct (Z.leb_spec e (len b)); [cbn [bad] in H; lia|]. rewrite andb_false_r. reflexivity.
Qed.

Theorem checked_exact' : stmt_checked_exact'.
Proof.
  intros be b m cl fuel Hok _ Hbo Hbe Hwt Hwc Hlen _. apply checked_exact; assumption.
Qed.
Print Assumptions checked_exact'.
