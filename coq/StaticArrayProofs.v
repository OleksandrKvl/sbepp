(* StaticArrayProofs.v — lemmas about the static_array_ref model
   (StaticArray.v).  The property statements themselves are collected in
   Properties_C14.v.

   Memory is kept in the normal form [pre ++ arr ++ post] throughout; a
   pointer into it is a variable [p] with [p = Z.of_nat (length pre')] for
   the prefix [pre'] it points behind. *)
From Coq Require Import ZArith List Bool Lia.
From Sbepp Require Import CInt CIntFacts StaticArray.
Import ListNotations.
Import SArr.
Local Open Scope Z_scope.

Definition nonnul (c : Z) : Prop := c <> 0.

Lemma size_t_of_ptrdiff_nonneg d : 0 <= d -> size_t_of_ptrdiff d = d.
Proof.
  intros H. unfold size_t_of_ptrdiff. rewrite (proj2 (Z.ltb_ge _ _) H). reflexivity.
Qed.

Lemma size_t_of_ptrdiff_is_ccast d :
  in_range I64 d = true -> size_t_of_ptrdiff d = ccast U64 d.
Proof.
  intros H. apply in_range_iff in H.
  unfold ccast, wrap, size_t_of_ptrdiff, tmin, tmax in *. cbn [is_signed bits] in *.
  destruct (Z.ltb_spec d 0).
  - rewrite <- (Z_mod_plus_full d 1), Z.mod_small; lia.
  - rewrite Z.mod_small; lia.
Qed.

Lemma upd_nat_app pre x post v :
  upd_nat (pre ++ x :: post) (length pre) v = Some (pre ++ v :: post).
Proof.
  induction pre as [|p pre IH]; cbn; [reflexivity|]. rewrite IH. reflexivity.
Qed.

Lemma wr_app pre x post v :
  wr (pre ++ x :: post) (Z.of_nat (length pre)) v = Some (pre ++ v :: post).
Proof.
  unfold wr. destruct (Z.ltb_spec (Z.of_nat (length pre)) 0) as [H|H]; [lia|].
  rewrite Nat2Z.id. apply upd_nat_app.
Qed.

Lemma upd_nat_none : forall mem i v, (length mem <= i)%nat -> upd_nat mem i v = None.
Proof.
  induction mem as [|x t IH]; intros i v H; [destruct i; reflexivity|].
  destruct i as [|j]; cbn in H; [lia|]. cbn. rewrite IH by lia. reflexivity.
Qed.

Lemma wr_none mem p v : Z.of_nat (length mem) <= p -> wr mem p v = None.
Proof.
  intros H. unfold wr. destruct (Z.ltb_spec p 0); [reflexivity|].
  apply upd_nat_none. lia.
Qed.

Lemma rd_app pre x post :
  rd (pre ++ x :: post) (Z.of_nat (length pre)) = Some x.
Proof.
  unfold rd. destruct (Z.ltb_spec (Z.of_nat (length pre)) 0) as [H|H]; [lia|].
  rewrite Nat2Z.id. rewrite nth_error_app2 by lia. rewrite Nat.sub_diag. reflexivity.
Qed.

(* one step of a forward loop moves an element from the segment into the prefix *)
Lemma app_snoc {A} (l : list A) x m : l ++ x :: m = (l ++ [x]) ++ m.
Proof. exact (app_assoc l [x] m). Qed.

(* the whole behaviour of a copy to a pointer inside the buffer: [buf] is
   everything from the pointer on; a source longer than that faults, after
   having overwritten all of [buf] *)
Lemma copy_loop_spec : forall src pre buf p,
  p = Z.of_nat (length pre) ->
  copy_loop (pre ++ buf) p src
  = if (length src <=? length buf)%nat
    then Some (pre ++ src ++ skipn (length src) buf, p + Z.of_nat (length src))
    else None.
Proof.
  induction src as [|x xs IH]; intros pre buf p Hp.
  - cbn. rewrite Z.add_0_r. reflexivity.
  - destruct buf as [|o buf]; cbn [copy_loop length Nat.leb skipn].
    + rewrite app_nil_r, wr_none by lia. reflexivity.
    + subst p. rewrite wr_app, (app_snoc pre x).
      rewrite (IH (pre ++ [x]) buf (Z.of_nat (length pre) + 1))
        by (rewrite last_length; lia).
      destruct (length xs <=? length buf)%nat; [|reflexivity].
      rewrite <- app_assoc. do 2 f_equal. lia.
Qed.

Lemma copy_loop_out : forall src mem out mem' res,
  copy_loop mem out src = Some (mem', res) -> res = out + Z.of_nat (length src).
Proof.
  induction src as [|x xs IH]; intros mem out mem' res H; cbn [copy_loop] in H.
  - injection H as _ <-. cbn. lia.
  - destruct (wr mem out x); [|discriminate]. apply IH in H. cbn [length]. lia.
Qed.

Lemma fill_n_loop_copy : forall n mem out v,
  fill_n_loop mem out n v = copy_loop mem out (repeat v n).
Proof.
  induction n as [|n IH]; intros mem out v; cbn; [reflexivity|].
  destruct (wr mem out v); [apply IH|reflexivity].
Qed.

Lemma fill_n_loop_app n pre old post v p :
  p = Z.of_nat (length pre) -> length old = n ->
  fill_n_loop (pre ++ old ++ post) p n v
  = Some (pre ++ repeat v n ++ post, p + Z.of_nat n).
Proof.
  intros Hp <-. rewrite fill_n_loop_copy, (copy_loop_spec _ _ _ _ Hp), repeat_length.
  rewrite app_length, skipn_app, skipn_all, Nat.sub_diag.
  rewrite (proj2 (Nat.leb_le _ _)) by lia. reflexivity.
Qed.

Lemma assert_true checks mem c : c = true -> assert_ checks mem c = Ok tt.
Proof. intros ->. unfold assert_. rewrite andb_false_r. reflexivity. Qed.

Lemma assert_false mem c : c = false -> assert_ true mem c = AssertFail mem.
Proof. intros ->. reflexivity. Qed.

Lemma size_check_ok off vend N : off + Z.of_nat N <= vend -> size_check off vend N = true.
Proof.
  intros H. unfold size_check. rewrite size_t_of_ptrdiff_nonneg by lia.
  apply andb_true_iff. split; apply Z.leb_le; lia.
Qed.

Lemma size_check_short off vend N :
  off <= vend < off + Z.of_nat N -> size_check off vend N = false.
Proof.
  intros H. unfold size_check. rewrite size_t_of_ptrdiff_nonneg by lia.
  apply andb_false_iff. right. apply Z.leb_gt. lia.
Qed.

Lemma data_ok checks mem off vend N :
  off + Z.of_nat N <= vend -> data checks mem off vend N = Ok off.
Proof.
  intros H. unfold data. rewrite assert_true by (apply size_check_ok; exact H). reflexivity.
Qed.

Lemma end_ok checks mem off vend N :
  off + Z.of_nat N <= vend -> end_ checks mem off vend N = Ok (off + Z.of_nat N).
Proof. intros H. unfold end_. rewrite (data_ok _ _ _ _ _ H). reflexivity. Qed.

Lemma data_short mem off vend N :
  off <= vend < off + Z.of_nat N -> data true mem off vend N = AssertFail mem.
Proof.
  intros H. unfold data. rewrite assert_false by (apply size_check_short; exact H). reflexivity.
Qed.

Lemma map_const_repeat (l : list Z) : map (fun _ => 0) l = repeat 0 (length l).
Proof. induction l as [|x t IH]; cbn; [reflexivity|]. rewrite IH. reflexivity. Qed.

(* [q] is eos_pos: the array ends [length rest] elements behind it *)
Lemma pad_spec checks pre rest post off vend N mode q :
  off + Z.of_nat N <= vend ->
  q = Z.of_nat (length pre) ->
  off + Z.of_nat N = q + Z.of_nat (length rest) ->
  pad checks (pre ++ rest ++ post) off vend N mode q
  = Ok (pre ++ padding mode rest ++ post).
Proof.
  intros Hv Hq He. unfold pad.
  destruct mode; [reflexivity| |]; rewrite (end_ok _ _ _ _ _ Hv); cbn [bind].
  - destruct rest as [|x t]; cbn [length] in He.
    + rewrite (proj2 (Z.eqb_eq _ _)) by lia. reflexivity.
    + rewrite (proj2 (Z.eqb_neq _ _)) by lia. subst q. cbn [app]. rewrite wr_app. reflexivity.
  - unfold std_fill. rewrite (proj2 (Z.ltb_ge _ _)) by lia.
    replace (Z.to_nat (off + Z.of_nat N - q)) with (length rest) by lia.
    rewrite (fill_n_loop_app _ _ rest post 0 _ Hq eq_refl).
    cbn [option_map fst lift padding]. rewrite map_const_repeat. reflexivity.
Qed.

Lemma copy_to_begin pre arr post input :
  (length input <= length arr)%nat ->
  copy_loop (pre ++ arr ++ post) (Z.of_nat (length pre)) input
  = Some (pre ++ spec_assign arr input ++ post,
          Z.of_nat (length pre) + Z.of_nat (length input)).
Proof.
  intros Hl. rewrite (copy_loop_spec _ _ _ _ eq_refl), app_length, skipn_app.
  rewrite (proj2 (Nat.leb_le _ _)), (proj2 (Nat.sub_0_le _ _) Hl) by lia.
  unfold spec_assign. rewrite <- app_assoc. reflexivity.
Qed.

Lemma pad_after_copy checks pre arr post vend input mode :
  (length input <= length arr)%nat ->
  Z.of_nat (length pre) + Z.of_nat (length arr) <= vend ->
  pad checks (pre ++ spec_assign arr input ++ post) (Z.of_nat (length pre)) vend
      (length arr) mode (Z.of_nat (length pre) + Z.of_nat (length input))
  = Ok (pre ++ spec_assign_string arr input mode ++ post).
Proof.
  intros Hl Hv. unfold spec_assign, spec_assign_string.
  rewrite <- !(app_assoc input), !(app_assoc pre input).
  apply pad_spec; [exact Hv|rewrite app_length; lia|rewrite skipn_length; lia].
Qed.

Lemma assign_range_exact checks pre arr post vend r :
  (length r <= length arr)%nat ->
  Z.of_nat (length pre) + Z.of_nat (length arr) <= vend ->
  assign_range checks (pre ++ arr ++ post) (Z.of_nat (length pre)) vend (length arr) r
  = Ok (pre ++ spec_assign arr r ++ post,
        Z.of_nat (length pre) + Z.of_nat (length r)).
Proof.
  intros Hl Hv. unfold assign_range, begin_.
  rewrite (data_ok _ _ _ _ _ Hv). cbn [bind].
  rewrite (copy_to_begin _ _ _ _ Hl). cbn [lift bind].
  rewrite (end_ok _ _ _ _ _ Hv). cbn [bind].
  rewrite assert_true by (apply Z.leb_le; lia). reflexivity.
Qed.

Lemma assign_string_range_exact checks pre arr post vend r mode :
  (length r <= length arr)%nat ->
  Z.of_nat (length pre) + Z.of_nat (length arr) <= vend ->
  assign_string_range checks (pre ++ arr ++ post) (Z.of_nat (length pre)) vend
    (length arr) r mode
  = Ok (pre ++ spec_assign_string arr r mode ++ post,
        Z.of_nat (length pre) + Z.of_nat (length r)).
Proof.
  intros Hl Hv. unfold assign_string_range.
  rewrite (assign_range_exact _ _ _ _ _ _ Hl Hv). cbn [bind].
  rewrite (pad_after_copy _ _ _ _ _ _ mode Hl Hv). reflexivity.
Qed.

Lemma c_strlen_prefix s rest :
  Forall nonnul s -> c_strlen (s ++ 0 :: rest) = Some (length s).
Proof.
  induction 1 as [|c t Hc _ IH]; [reflexivity|].
  cbn. destruct (Z.eqb_spec c 0) as [->|_]; [exfalso; apply Hc; reflexivity|].
  rewrite IH. reflexivity.
Qed.

Lemma firstn_prefix (s t : list Z) : firstn (length s) (s ++ t) = s.
Proof.
  rewrite firstn_app, Nat.sub_diag, firstn_all. cbn. apply app_nil_r.
Qed.

Lemma assign_string_ptr_exact checks pre arr post vend s rest mode :
  Forall nonnul s ->
  (length s <= length arr)%nat ->
  Z.of_nat (length pre) + Z.of_nat (length arr) <= vend ->
  assign_string_ptr checks (pre ++ arr ++ post) (Z.of_nat (length pre)) vend
    (length arr) (Some (s ++ 0 :: rest)) mode
  = Ok (pre ++ spec_assign_string arr s mode ++ post,
        Z.of_nat (length pre) + Z.of_nat (length s)).
Proof.
  intros Hs Hl Hv. unfold assign_string_ptr, begin_.
  rewrite (c_strlen_prefix _ _ Hs). cbn [lift bind].
  rewrite assert_true by (apply Nat.leb_le; exact Hl). cbn [bind].
  rewrite (data_ok _ _ _ _ _ Hv). cbn [bind].
  rewrite firstn_prefix, (copy_to_begin _ _ _ _ Hl). cbn [lift bind].
  rewrite (pad_after_copy _ _ _ _ _ _ mode Hl Hv). reflexivity.
Qed.

(* assign(first, last) differs from assign_range only in how the final
   assertion is written: last_out - begin() <= N instead of res <= end() *)
Lemma assign_iter_is_range checks mem off vend N r :
  off + Z.of_nat N <= vend ->
  assign_iter checks mem off vend N r = assign_range checks mem off vend N r.
Proof.
  intros Hv. unfold assign_iter, assign_range, begin_.
  rewrite (data_ok _ _ _ _ _ Hv). cbn [bind].
  destruct (copy_loop mem off r) as [[mem1 res]|] eqn:E; [|reflexivity].
  apply copy_loop_out in E. cbn [lift bind].
  rewrite (data_ok _ _ _ _ _ Hv), (end_ok _ _ _ _ _ Hv). cbn [bind].
  rewrite size_t_of_ptrdiff_nonneg by lia.
  replace (res - off <=? Z.of_nat N) with (res <=? off + Z.of_nat N); [reflexivity|].
  apply eq_iff_eq_true. rewrite !Z.leb_le. lia.
Qed.

Lemma assign_iter_exact checks pre arr post vend r :
  (length r <= length arr)%nat ->
  Z.of_nat (length pre) + Z.of_nat (length arr) <= vend ->
  assign_iter checks (pre ++ arr ++ post) (Z.of_nat (length pre)) vend (length arr) r
  = Ok (pre ++ spec_assign arr r ++ post,
        Z.of_nat (length pre) + Z.of_nat (length r)).
Proof.
  intros Hl Hv. rewrite (assign_iter_is_range _ _ _ _ _ _ Hv).
  exact (assign_range_exact _ _ _ _ _ _ Hl Hv).
Qed.

Lemma assign_ilist_exact checks pre arr post vend il :
  (length il <= length arr)%nat ->
  Z.of_nat (length pre) + Z.of_nat (length arr) <= vend ->
  assign_ilist checks (pre ++ arr ++ post) (Z.of_nat (length pre)) vend (length arr) il
  = Ok (pre ++ spec_assign arr il ++ post,
        Z.of_nat (length pre) + Z.of_nat (length il)).
Proof.
  intros Hl Hv. unfold assign_ilist.
  rewrite assert_true by (apply Nat.leb_le; exact Hl).
  exact (assign_iter_exact _ _ _ _ _ _ Hl Hv).
Qed.

Lemma assign_count_exact checks pre arr post vend count v :
  (count <= length arr)%nat ->
  Z.of_nat (length pre) + Z.of_nat (length arr) <= vend ->
  assign_count checks (pre ++ arr ++ post) (Z.of_nat (length pre)) vend (length arr) count v
  = Ok (pre ++ spec_assign arr (repeat v count) ++ post,
        Z.of_nat (length pre) + Z.of_nat count).
Proof.
  intros Hl Hv. unfold assign_count, begin_.
  rewrite assert_true by (apply Nat.leb_le; exact Hl). cbn [bind].
  rewrite (data_ok _ _ _ _ _ Hv). cbn [bind].
  rewrite fill_n_loop_copy, copy_to_begin by (rewrite repeat_length; exact Hl).
  rewrite repeat_length. reflexivity.
Qed.

Lemma fill_exact checks pre arr post vend v :
  Z.of_nat (length pre) + Z.of_nat (length arr) <= vend ->
  fill checks (pre ++ arr ++ post) (Z.of_nat (length pre)) vend (length arr) v
  = Ok (pre ++ repeat v (length arr) ++ post).
Proof.
  intros Hv. unfold fill, begin_.
  rewrite (data_ok _ _ _ _ _ Hv). cbn [bind].
  rewrite (fill_n_loop_app _ pre arr post v _ eq_refl eq_refl). reflexivity.
Qed.

Lemma padding_length mode old : length (padding mode old) = length old.
Proof.
  destruct mode; cbn; [reflexivity|destruct old; reflexivity|apply map_length].
Qed.

Lemma spec_assign_string_length arr input mode :
  (length input <= length arr)%nat ->
  length (spec_assign_string arr input mode) = length arr.
Proof.
  intros H. unfold spec_assign_string.
  rewrite app_length, padding_length, skipn_length. lia.
Qed.

Lemma spec_assign_length arr input :
  (length input <= length arr)%nat -> length (spec_assign arr input) = length arr.
Proof. exact (spec_assign_string_length arr input EosNone). Qed.

(* the new array content always has exactly N elements: nothing is written
   at index N or beyond, nothing before index 0 *)
Lemma new_content_has_length_N arr input mode :
  (length input <= length arr)%nat ->
  length (spec_assign_string arr input mode) = length arr /\
  length (spec_assign arr input) = length arr.
Proof.
  intros H. split; [apply spec_assign_string_length|apply spec_assign_length]; exact H.
Qed.

Lemma padding_nth mode old j :
  (j < length old)%nat ->
  nth_error (padding mode old) j =
    match mode with
    | EosNone => nth_error old j
    | EosSingle => if (j =? 0)%nat then Some 0 else nth_error old j
    | EosAll => Some 0
    end.
Proof.
  intros Hj. destruct mode; cbn [padding].
  - reflexivity.
  - destruct old as [|x t]; [cbn in Hj; lia|]. destruct j; reflexivity.
  - rewrite nth_error_map. destruct (nth_error old j) eqn:E; [reflexivity|].
    apply nth_error_None in E. lia.
Qed.

Lemma spec_assign_string_nth arr input mode i :
  (length input <= length arr)%nat ->
  nth_error (spec_assign_string arr input mode) i =
    if (i <? length input)%nat then nth_error input i
    else if (i <? length arr)%nat then
      match mode with
      | EosNone => nth_error arr i
      | EosSingle => if (i =? length input)%nat then Some 0 else nth_error arr i
      | EosAll => Some 0
      end
    else None.
Proof.
  intros Hl. unfold spec_assign_string.
  destruct (Nat.ltb_spec i (length input)) as [Hi|Hi]; [apply nth_error_app1; exact Hi|].
  rewrite nth_error_app2 by exact Hi.
  destruct (Nat.ltb_spec i (length arr)) as [Hn|Hn].
  - rewrite padding_nth by (rewrite skipn_length; lia).
    replace (nth_error arr i) with (nth_error (skipn (length input) arr) (i - length input)).
    + destruct (Nat.eqb_spec i (length input)), (Nat.eqb_spec (i - length input) 0);
        reflexivity || lia.
    + rewrite <- (firstn_skipn (length input) arr) at 2.
      rewrite nth_error_app2; rewrite firstn_length_le by exact Hl; [reflexivity|exact Hi].
  - apply nth_error_None. rewrite padding_length, skipn_length. lia.
Qed.

Lemma assign_string_ptr_null mem off vend N mode :
  assign_string_ptr true mem off vend N None mode = AssertFail mem.
Proof. reflexivity. Qed.

Lemma overlong_asserts_before_write mem off vend N :
  (forall s rest mode, Forall nonnul s -> (N < length s)%nat ->
     assign_string_ptr true mem off vend N (Some (s ++ 0 :: rest)) mode = AssertFail mem) /\
  (forall mode, assign_string_ptr true mem off vend N None mode = AssertFail mem) /\
  (forall count v, (N < count)%nat ->
     assign_count true mem off vend N count v = AssertFail mem) /\
  (forall il, (N < length il)%nat ->
     assign_ilist true mem off vend N il = AssertFail mem).
Proof.
  split; [|split; [exact (assign_string_ptr_null mem off vend N)|split]].
  - intros s rest mode Hs Hl. unfold assign_string_ptr.
    rewrite (c_strlen_prefix _ _ Hs). cbn [lift bind].
    rewrite assert_false by (apply Nat.leb_gt; exact Hl). reflexivity.
  - intros count v Hl. unfold assign_count.
    rewrite assert_false by (apply Nat.leb_gt; exact Hl). reflexivity.
  - intros il Hl. unfold assign_ilist.
    rewrite assert_false by (apply Nat.leb_gt; exact Hl). reflexivity.
Qed.

(* copy of an over-long [r]: everything that fits the underlying buffer is
   written, including the elements after the array *)
Lemma assign_range_overlong pre arr post vend r :
  (length arr < length r)%nat ->
  Z.of_nat (length pre) + Z.of_nat (length arr) <= vend ->
  assign_range true (pre ++ arr ++ post) (Z.of_nat (length pre)) vend (length arr) r
  = if (length r <=? length arr + length post)%nat
    then AssertFail (pre ++ r ++ skipn (length r - length arr) post)
    else Fault.
Proof.
  intros Hl Hv. unfold assign_range, begin_.
  rewrite (data_ok _ _ _ _ _ Hv). cbn [bind].
  rewrite (copy_loop_spec _ _ _ _ eq_refl), app_length.
  destruct (length r <=? length arr + length post)%nat; [|reflexivity]. cbn [lift bind].
  rewrite (end_ok _ _ _ _ _ Hv). cbn [bind].
  rewrite assert_false by (apply Z.leb_gt; lia).
  rewrite skipn_app, skipn_all2 by lia. reflexivity.
Qed.

Lemma overlong_range_writes_then_asserts pre arr post vend r :
  (length arr < length r)%nat ->
  Z.of_nat (length pre) + Z.of_nat (length arr) <= vend ->
  let bad := if (length r <=? length arr + length post)%nat
             then AssertFail (pre ++ r ++ skipn (length r - length arr) post)
             else Fault in
  assign_range true (pre ++ arr ++ post) (Z.of_nat (length pre)) vend (length arr) r = bad /\
  assign_iter true (pre ++ arr ++ post) (Z.of_nat (length pre)) vend (length arr) r = bad /\
  forall mode,
  assign_string_range true (pre ++ arr ++ post) (Z.of_nat (length pre)) vend (length arr) r mode
  = bad.
Proof.
  intros Hl Hv bad. pose proof (assign_range_overlong _ _ post _ _ Hl Hv) as Hr.
  split; [exact Hr|split].
  - rewrite (assign_iter_is_range _ _ _ _ _ _ Hv). exact Hr.
  - intros mode. unfold assign_string_range. rewrite Hr. unfold bad.
    destruct (length r <=? length arr + length post)%nat; reflexivity.
Qed.

(* a view that is too short for N elements: every operation asserts before
   touching memory *)
Lemma short_view_asserts mem off vend N :
  off <= vend < off + Z.of_nat N ->
  (forall v, fill true mem off vend N v = AssertFail mem) /\
  (forall r, assign_range true mem off vend N r = AssertFail mem) /\
  (forall r mode, assign_string_range true mem off vend N r mode = AssertFail mem) /\
  (forall r, assign_iter true mem off vend N r = AssertFail mem) /\
  (forall il, assign_ilist true mem off vend N il = AssertFail mem) /\
  (forall count v, assign_count true mem off vend N count v = AssertFail mem) /\
  (forall s rest mode, Forall nonnul s ->
     assign_string_ptr true mem off vend N (Some (s ++ 0 :: rest)) mode = AssertFail mem) /\
  (forall ce, strlen ce true mem off vend N = AssertFail mem) /\
  strlen_r true mem off vend N = AssertFail mem.
Proof.
  intros H. pose proof (data_short mem _ _ _ H) as Hd.
  repeat split; intros.
  - unfold fill, begin_. rewrite Hd. reflexivity.
  - unfold assign_range, begin_. rewrite Hd. reflexivity.
  - unfold assign_string_range, assign_range, begin_. rewrite Hd. reflexivity.
  - unfold assign_iter, begin_. rewrite Hd. reflexivity.
  - unfold assign_ilist, assign_iter, begin_, assert_. rewrite Hd.
    destruct (Nat.leb (length il) N); reflexivity.
  - unfold assign_count, begin_, assert_. rewrite Hd.
    destruct (Nat.leb count N); reflexivity.
  - unfold assign_string_ptr, begin_, assert_.
    rewrite c_strlen_prefix by assumption. cbn [lift bind]. rewrite Hd.
    destruct (Nat.leb (length s) N); reflexivity.
  - unfold strlen, strlen_rt. rewrite Hd. destruct ce; reflexivity.
  - unfold strlen_r, end_. rewrite Hd. reflexivity.
Qed.

(* [P] holds of [m] and of nothing else; for the latter it is enough to
   refute a < b *)
Lemma characterised_by (P : nat -> Prop) m :
  P m -> (forall a b, P a -> P b -> (a < b)%nat -> False) ->
  forall n, m = n <-> P n.
Proof.
  intros Hm Hlt n. split; [intros <-; exact Hm|]. intros Hn.
  destruct (lt_eq_lt_dec m n) as [[L|E]|L]; [|exact E|]; exfalso; eauto.
Qed.

Definition strlen_char (s : list Z) (n : nat) : Prop :=
  (n <= length s)%nat /\
  (forall i, (i < n)%nat -> exists c, nth_error s i = Some c /\ c <> 0) /\
  (n = length s \/ nth_error s n = Some 0).

Lemma spec_strlen_sound : forall s, strlen_char s (spec_strlen s).
Proof.
  induction s as [|c t IH]; unfold strlen_char.
  - cbn. repeat split; [lia| intros i Hi; lia | left; reflexivity].
  - cbn [spec_strlen]. destruct (Z.eqb_spec c 0) as [->|Hc].
    + repeat split; [cbn; lia | intros i Hi; lia | right; reflexivity].
    + destruct IH as (H1 & H2 & H3). repeat split.
      * cbn. lia.
      * intros [|j] Hi; [exists c; split; [reflexivity|exact Hc]|].
        cbn. apply H2. lia.
      * destruct H3 as [->|H3]; [left; reflexivity|right; exact H3].
Qed.

Lemma spec_strlen_char s n : spec_strlen s = n <-> strlen_char s n.
Proof.
  apply characterised_by; [apply spec_strlen_sound|].
  (* the smaller one is followed by the end or a NUL, the larger one is not *)
  intros a b (_ & _ & Ha) (Hb1 & Hb2 & _) Hab.
  destruct (Hb2 a Hab) as (c & Hc & Hnz).
  destruct Ha as [->|Ha]; [lia|]. rewrite Ha in Hc. injection Hc as <-.
  apply Hnz. reflexivity.
Qed.

Lemma memchr_loop_spec : forall s pre post p,
  p = Z.of_nat (length pre) ->
  memchr_loop (pre ++ s ++ post) p (length s)
  = Some (if (spec_strlen s <? length s)%nat
          then Some (p + Z.of_nat (spec_strlen s)) else None).
Proof.
  induction s as [|c t IH]; intros pre post p ->; [reflexivity|].
  cbn [memchr_loop length app spec_strlen]. rewrite rd_app.
  destruct (c =? 0).
  - cbn. rewrite Z.add_0_r. reflexivity.
  - rewrite (app_snoc pre c), (IH (pre ++ [c]) post (Z.of_nat (length pre) + 1))
      by (rewrite last_length; lia).
    change (S (spec_strlen t) <? S (length t))%nat with (spec_strlen t <? length t)%nat.
    destruct (spec_strlen t <? length t)%nat; [|reflexivity]. do 2 f_equal. lia.
Qed.

Lemma ce_scan_spec : forall s pre post d l,
  d + l = Z.of_nat (length pre) ->
  ce_scan (pre ++ s ++ post) d l (length s) = Some (l + Z.of_nat (spec_strlen s)).
Proof.
  induction s as [|c t IH]; intros pre post d l Hd.
  - cbn. rewrite Z.add_0_r. reflexivity.
  - cbn [ce_scan length app spec_strlen]. rewrite Hd, rd_app.
    destruct (c =? 0).
    + cbn. rewrite Z.add_0_r. reflexivity.
    + rewrite (app_snoc pre c), (IH (pre ++ [c]) post d (l + 1))
        by (rewrite last_length; lia).
      f_equal. lia.
Qed.

Lemma strlen_exact ce checks pre arr post vend :
  Z.of_nat (length pre) + Z.of_nat (length arr) <= vend ->
  strlen ce checks (pre ++ arr ++ post) (Z.of_nat (length pre)) vend (length arr)
  = Ok (Z.of_nat (spec_strlen arr)).
Proof.
  intros Hv. unfold strlen, strlen_rt. destruct ce; rewrite (data_ok _ _ _ _ _ Hv); cbn [bind].
  - rewrite (ce_scan_spec arr pre post _ 0) by lia. reflexivity.
  - rewrite (memchr_loop_spec _ _ _ _ eq_refl). cbn [lift bind].
    destruct (Nat.ltb_spec (spec_strlen arr) (length arr)) as [Hlt|Hge].
    + cbn [bind]. f_equal. lia.
    + destruct (spec_strlen_sound arr) as [Hle _]. f_equal. lia.
Qed.

Lemma spec_strlen_r_snoc a x :
  spec_strlen_r (a ++ [x]) = if x =? 0 then spec_strlen_r a else S (length a).
Proof.
  unfold spec_strlen_r. rewrite rev_unit. cbn [drop_nuls].
  destruct (x =? 0); [reflexivity|]. cbn [length]. rewrite rev_length. reflexivity.
Qed.

Definition strlen_r_char (s : list Z) (n : nat) : Prop :=
  (n <= length s)%nat /\
  (forall i, (n <= i < length s)%nat -> nth_error s i = Some 0) /\
  (n = O \/ exists c, nth_error s (n - 1) = Some c /\ c <> 0).

Lemma spec_strlen_r_sound : forall s, strlen_r_char s (spec_strlen_r s).
Proof.
  induction s as [|x a IH] using rev_ind; unfold strlen_r_char.
  - cbn. repeat split; [lia | intros i Hi; lia | left; reflexivity].
  - rewrite spec_strlen_r_snoc, app_length. cbn [length].
    destruct (Z.eqb_spec x 0) as [->|Hx].
    + destruct IH as (H1 & H2 & H3). repeat split; [lia| |].
      * intros i Hi. destruct (Nat.eq_dec i (length a)) as [->|Hne].
        -- rewrite nth_error_app2, Nat.sub_diag by lia. reflexivity.
        -- rewrite nth_error_app1 by lia. apply H2. lia.
      * destruct H3 as [H3|(c & Hc & Hnz)]; [left; exact H3|].
        right. exists c. split; [|exact Hnz].
        rewrite nth_error_app1; [exact Hc|]. apply nth_error_Some. rewrite Hc. discriminate.
    + repeat split; [lia|intros i Hi; lia|].
      right. exists x. split; [|exact Hx].
      replace (S (length a) - 1)%nat with (length a) by lia.
      rewrite nth_error_app2, Nat.sub_diag by lia. reflexivity.
Qed.

Lemma spec_strlen_r_char s n : spec_strlen_r s = n <-> strlen_r_char s n.
Proof.
  apply characterised_by; [apply spec_strlen_r_sound|].
  (* everything from the smaller one on is NUL, the larger one follows a non-NUL *)
  intros a b (_ & Ha & _) (Hb1 & _ & Hb) Hab.
  destruct Hb as [->|(c & Hc & Hnz)]; [lia|].
  rewrite (Ha (b - 1)%nat) in Hc by lia. injection Hc as <-. apply Hnz. reflexivity.
Qed.

Lemma find_if_rev_spec : forall a pre post,
  find_if_rev (pre ++ a ++ post) (Z.of_nat (length pre)) (length a)
  = Some (Z.of_nat (length pre) + Z.of_nat (spec_strlen_r a)).
Proof.
  induction a as [|x a IH] using rev_ind; intros pre post.
  - cbn. rewrite Z.add_0_r. reflexivity.
  - rewrite last_length. cbn [find_if_rev].
    (* the element read is [x]: bring the memory to the form (pre ++ a) ++ x :: post *)
    rewrite <- app_snoc, app_assoc, <- (Nat2Z.inj_add (length pre)), <- app_length.
    rewrite rd_app, spec_strlen_r_snoc.
    destruct (x =? 0); cbn [negb]; [|reflexivity].
    rewrite <- app_assoc. apply IH.
Qed.

Lemma strlen_r_exact checks pre arr post vend :
  Z.of_nat (length pre) + Z.of_nat (length arr) <= vend ->
  strlen_r checks (pre ++ arr ++ post) (Z.of_nat (length pre)) vend (length arr)
  = Ok (Z.of_nat (spec_strlen_r arr)).
Proof.
  intros Hv. unfold strlen_r, begin_.
  rewrite (end_ok _ _ _ _ _ Hv). cbn [bind].
  rewrite (data_ok _ _ _ _ _ Hv). cbn [bind].
  rewrite Z.add_simpl_l, Nat2Z.id, find_if_rev_spec. cbn [lift bind]. f_equal. lia.
Qed.

Lemma spec_strlen_app s t :
  Forall nonnul s -> spec_strlen (s ++ t) = (length s + spec_strlen t)%nat.
Proof.
  induction 1 as [|c s Hc _ IH]; [reflexivity|].
  cbn. destruct (Z.eqb_spec c 0) as [->|_]; [exfalso; apply Hc; reflexivity|].
  rewrite IH. reflexivity.
Qed.

Lemma strlen_after_assign_string arr s mode :
  Forall nonnul s -> (length s <= length arr)%nat -> mode <> EosNone ->
  spec_strlen (spec_assign_string arr s mode) = length s.
Proof.
  intros Hs Hl Hm. unfold spec_assign_string. rewrite (spec_strlen_app _ _ Hs).
  destruct (skipn (length s) arr) as [|x t]; destruct mode; cbn; try lia;
    exfalso; apply Hm; reflexivity.
Qed.

Lemma drop_nuls_zeros (z l : list Z) :
  Forall (fun c => c = 0) z -> drop_nuls (z ++ l) = drop_nuls l.
Proof. induction 1 as [|c z Hc _ IH]; [reflexivity|]. cbn. rewrite Hc. exact IH. Qed.

Lemma strlen_r_after_assign_string_all arr s :
  spec_strlen_r (spec_assign_string arr s EosAll) = spec_strlen_r s.
Proof.
  unfold spec_assign_string, spec_strlen_r. cbn [padding].
  rewrite rev_app_distr, drop_nuls_zeros; [reflexivity|].
  apply Forall_rev. apply Forall_forall. intros c Hc.
  apply in_map_iff in Hc. destruct Hc as (y & Hy & _). symmetry. exact Hy.
Qed.

(* the defect repaired by fix_c14.diff: constant-evaluated strlen() scanned
   past the array.  Array "abcd" (N = 4, no NUL) followed by "ef\0": the
   documented result is 4. *)
Example legacy_consteval_strlen_refuted :
  let mem := [120; 97; 98; 99; 100; 101; 102; 0; 121] in
  Legacy.strlen true true mem 1 5 4 = Ok 6 /\
  strlen true true mem 1 5 4 = Ok 4 /\
  spec_strlen [97; 98; 99; 100] = 4%nat.
Proof. vm_compute. repeat split. Qed.

(* ... and is not a constant expression at all when nothing after the array
   is NUL *)
Example legacy_consteval_strlen_refuted_no_nul :
  let mem := [120; 97; 98; 121] in
  Legacy.strlen true true mem 1 3 2 = Fault /\ strlen true true mem 1 3 2 = Ok 2.
Proof. vm_compute. repeat split. Qed.

(* the run-time path was already right *)
Example legacy_runtime_strlen_agrees :
  let mem := [120; 97; 98; 99; 100; 101; 102; 0; 121] in
  Legacy.strlen false true mem 1 5 4 = Ok 4.
Proof. vm_compute. reflexivity. Qed.

(* the assertion of assign_range / assign(first,last) fires only after the
   bytes behind the array have been overwritten: N = 2, input "abcd", the two
   guard bytes 'y' 'z' are gone when the handler runs *)
Example overlong_range_clobbers_before_assert :
  assign_range true [120; 0; 0; 121; 122] 1 3 2 [97; 98; 99; 100]
  = AssertFail [120; 97; 98; 99; 100].
Proof. vm_compute. reflexivity. Qed.

(* non-vacuity: concrete instances satisfying every hypothesis of the main
   theorems, with the computed conclusion.  Memory: guard 'x', array, guard
   'y' 'z'.  97 98 99 = "abc".  [nv] splits the conjunction; a conjunct is an
   equation closed by evaluation, a comparison of evaluated lengths, or a
   [Forall nonnul] with one inequality per character. *)

Ltac nv :=
  repeat split; try reflexivity; try (cbn; lia);
  try (repeat constructor; discriminate).

Example assign_string_ptr_exact_nonvacuous :
  Forall nonnul [97; 98] /\ (length [97; 98] <= length [1; 2; 3; 4])%nat /\
  Z.of_nat (length [120]) + Z.of_nat (length [1; 2; 3; 4]) <= 5 /\
  assign_string_ptr true ([120] ++ [1; 2; 3; 4] ++ [121; 122]) 1 5 4
    (Some ([97; 98] ++ 0 :: [55])) EosSingle
  = Ok ([120; 97; 98; 0; 4; 121; 122], 3) /\
  assign_string_ptr true ([120] ++ [1; 2; 3; 4] ++ [121; 122]) 1 5 4
    (Some ([97; 98] ++ 0 :: [55])) EosAll
  = Ok ([120; 97; 98; 0; 0; 121; 122], 3) /\
  assign_string_ptr true ([120] ++ [1; 2; 3; 4] ++ [121; 122]) 1 5 4
    (Some ([97; 98] ++ 0 :: [55])) EosNone
  = Ok ([120; 97; 98; 3; 4; 121; 122], 3).
Proof. nv. Qed.

Example assign_string_range_exact_nonvacuous :
  (length [97; 0; 98] <= length [1; 2; 3])%nat /\
  Z.of_nat (length [120]) + Z.of_nat (length [1; 2; 3]) <= 4 /\
  assign_string_range false ([120] ++ [1; 2; 3] ++ [121]) 1 4 3 [97; 0; 98] EosAll
  = Ok ([120; 97; 0; 98; 121], 4) /\
  (* N = 0 *)
  assign_string_range true ([120] ++ [] ++ [121]) 1 1 0 [] EosAll = Ok ([120; 121], 1).
Proof. nv. Qed.

Example assign_range_exact_nonvacuous :
  (length [97] <= length [1; 2])%nat /\
  Z.of_nat (length [120]) + Z.of_nat (length [1; 2]) <= 3 /\
  assign_range true ([120] ++ [1; 2] ++ [121]) 1 3 2 [97] = Ok ([120; 97; 2; 121], 2) /\
  assign_iter true ([120] ++ [1; 2] ++ [121]) 1 3 2 [97] = Ok ([120; 97; 2; 121], 2) /\
  assign_ilist true ([120] ++ [1; 2] ++ [121]) 1 3 2 [97] = Ok ([120; 97; 2; 121], 2).
Proof. nv. Qed.

Example assign_count_fill_exact_nonvacuous :
  (1 <= length [1; 2])%nat /\
  Z.of_nat (length [120]) + Z.of_nat (length [1; 2]) <= 3 /\
  assign_count true ([120] ++ [1; 2] ++ [121]) 1 3 2 1 98 = Ok ([120; 98; 2; 121], 2) /\
  fill true ([120] ++ [1; 2] ++ [121]) 1 3 2 98 = Ok [120; 98; 98; 121].
Proof. nv. Qed.

Example strlen_exact_nonvacuous :
  Z.of_nat (length [120]) + Z.of_nat (length [97; 0; 98; 0]) <= 5 /\
  strlen false true ([120] ++ [97; 0; 98; 0] ++ [121]) 1 5 4 = Ok 1 /\
  strlen true true ([120] ++ [97; 0; 98; 0] ++ [121]) 1 5 4 = Ok 1 /\
  strlen_r true ([120] ++ [97; 0; 98; 0] ++ [121]) 1 5 4 = Ok 3 /\
  strlen_char [97; 0; 98; 0] 1 /\ strlen_r_char [97; 0; 98; 0] 3.
Proof.
  split; [cbn; lia|].
  split; [reflexivity|]. split; [reflexivity|]. split; [reflexivity|].
  split; [apply spec_strlen_char|apply spec_strlen_r_char]; reflexivity.
Qed.

Example overlong_nonvacuous :
  Forall nonnul [97; 98; 99] /\ (2 < length [97; 98; 99])%nat /\
  assign_string_ptr true [120; 1; 2; 121] 1 3 2 (Some ([97; 98; 99] ++ 0 :: [])) EosAll
  = AssertFail [120; 1; 2; 121] /\
  assign_range true ([120] ++ [1; 2] ++ [121]) 1 3 2 [97; 98; 99] = AssertFail [120; 97; 98; 99] /\
  assign_range true ([120] ++ [1; 2] ++ [121]) 1 3 2 [97; 98; 99; 100] = Fault.
Proof. nv. Qed.

Example short_view_nonvacuous :
  1 <= 2 < 1 + Z.of_nat 2 /\ fill true [120; 1; 2; 121] 1 2 2 98 = AssertFail [120; 1; 2; 121].
Proof. nv. Qed.
