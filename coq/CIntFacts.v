(* CIntFacts.v — basic lemmas about CInt. *)
From Coq Require Import ZArith Bool Lia.
From Sbepp Require Import CInt.
Local Open Scope Z_scope.

Lemma bits_pos t : 0 < bits t.
Proof. destruct t; cbn; lia. Qed.

Lemma pow_bits t : 2 ^ bits t = 2 * 2 ^ (bits t - 1).
Proof.
  pose proof (bits_pos t). rewrite <- Z.pow_succ_r by lia. f_equal. lia.
Qed.

Lemma bits_le_64 t : 2 ^ bits t <= 2 ^ 64.
Proof. apply Z.pow_le_mono_r; [lia|]. destruct t; cbn; lia. Qed.

Lemma in_range_iff t z : in_range t z = true <-> tmin t <= z <= tmax t.
Proof. unfold in_range. rewrite andb_true_iff, !Z.leb_le. tauto. Qed.

Lemma unsigned_range t z :
  is_signed t = false -> (in_range t z = true <-> 0 <= z < 2 ^ bits t).
Proof.
  intros Hs. rewrite in_range_iff. unfold tmin, tmax. rewrite Hs. lia.
Qed.

Lemma in_range_u64 z : in_range U64 z = true <-> 0 <= z < 2 ^ 64.
Proof. now apply unsigned_range. Qed.

Lemma i64_range z : tmin I64 <= z <= tmax I64 <-> - 2 ^ 63 <= z < 2 ^ 63.
Proof. change (tmin I64) with (- 2 ^ 63). change (tmax I64) with (2 ^ 63 - 1). lia. Qed.

Lemma u64_range z : tmin U64 <= z <= tmax U64 <-> 0 <= z < 2 ^ 64.
Proof. change (tmin U64) with 0. change (tmax U64) with (2 ^ 64 - 1). lia. Qed.

Lemma i32_range z : - 2 ^ 31 <= z < 2 ^ 31 -> in_range I32 z = true.
Proof.
  intros H. apply in_range_iff. change (tmin I32) with (- 2 ^ 31). change (tmax I32) with (2 ^ 31 - 1).
  lia.
Qed.

(* the values of [s] are values of [t]; by widths, so that deciding it costs no powers of two *)
Definition fits_in (s t : ity) : bool :=
  if is_signed s then is_signed t && (bits s <=? bits t)
  else if is_signed t then bits s <? bits t else bits s <=? bits t.

Lemma fits_in_range s t v : fits_in s t = true -> in_range s v = true -> in_range t v = true.
Proof.
  unfold fits_in. rewrite !in_range_iff. unfold tmin, tmax. pose proof (bits_pos s) as Hs.
  destruct (is_signed s), (is_signed t); cbn [andb]; rewrite ?Z.leb_le, ?Z.ltb_lt; intros Hb; try discriminate Hb.
  - pose proof (Z.pow_le_mono_r 2 (bits s - 1) (bits t - 1)). lia.
  - pose proof (Z.pow_le_mono_r 2 (bits s) (bits t - 1)). lia.
  - pose proof (Z.pow_le_mono_r 2 (bits s) (bits t)). lia.
Qed.

Lemma bits_promote t : bits t <= bits (promote t).
Proof. destruct t; discriminate. Qed.

Lemma in_range_promote t z : in_range t z = true -> in_range (promote t) z = true.
Proof. apply fits_in_range. destruct t; reflexivity. Qed.

Lemma in_range_opp t v : is_signed t = true -> 0 <= v -> in_range t v = true -> in_range t (- v) = true.
Proof.
  intros Hs Hv H. apply in_range_iff. apply in_range_iff in H.
  unfold tmin, tmax in *. rewrite Hs in *. lia.
Qed.

(* no case analysis on [t]: 2^bits = 2 * 2^(bits-1) is all that is used *)
Lemma wrap_id t z : in_range t z = true -> wrap t z = z.
Proof.
  intros H. apply in_range_iff in H. unfold wrap, tmin, tmax in *.
  destruct (is_signed t); [|apply Z.mod_small; lia].
  rewrite Z.mod_small; [lia|]. rewrite pow_bits. lia.
Qed.

Lemma wrap_id' t z : tmin t <= z <= tmax t -> wrap t z = z.
Proof. intros H. apply wrap_id, in_range_iff, H. Qed.

Lemma wrap_u64 z : 0 <= z < 2 ^ 64 -> wrap U64 z = z.
Proof. intros H. now apply wrap_id, in_range_u64. Qed.

Lemma wrap_range t z : in_range t (wrap t z) = true.
Proof.
  apply in_range_iff. unfold wrap, tmin, tmax.
  assert (Hp : 0 < 2 ^ bits t) by (apply Z.pow_pos_nonneg; pose proof (bits_pos t); lia).
  destruct (is_signed t).
  - pose proof (Z.mod_pos_bound (z + 2 ^ (bits t - 1)) _ Hp). rewrite pow_bits in *. lia.
  - pose proof (Z.mod_pos_bound z _ Hp). lia.
Qed.

Lemma wrap_wrap t z : wrap t (wrap t z) = wrap t z.
Proof. apply wrap_id, wrap_range. Qed.

Lemma wrap_mod t z : wrap t z mod 2 ^ bits t = z mod 2 ^ bits t.
Proof.
  pose proof (bits_pos t). unfold wrap. destruct (is_signed t).
  - rewrite Zminus_mod_idemp_l. f_equal. ring.
  - apply Z.mod_mod, Z.pow_nonzero; lia.
Qed.

Lemma wrap_uns_add t a b : is_signed t = false ->
  wrap t (wrap t a + wrap t b) = wrap t (a + b).
Proof. intros Hs. unfold wrap. rewrite Hs. symmetry. apply Zplus_mod. Qed.

Lemma wrap_uns_sub t a b : is_signed t = false ->
  wrap t (wrap t a - wrap t b) = wrap t (a - b).
Proof. intros Hs. unfold wrap. rewrite Hs. symmetry. apply Zminus_mod. Qed.

(* converting an unsigned value to the signed type of the same width *)
Lemma wrap_signed_of_unsigned t x : is_signed t = false ->
  wrap (to_signed t) (wrap t x) = wrap (to_signed t) x.
Proof.
  destruct t; try discriminate; intros _; unfold wrap; cbn [to_signed is_signed bits];
    rewrite Zplus_mod_idemp_l; reflexivity.
Qed.

Lemma land_mod_r a b w : 0 <= w -> 0 <= a < 2 ^ w ->
  Z.land a (b mod 2 ^ w) = Z.land a b.
Proof.
  intros Hw Ha. rewrite <- (Z.land_ones b w) by lia.
  rewrite (Z.land_comm b), Z.land_assoc, Z.land_ones by lia.
  rewrite Z.mod_small by lia. reflexivity.
Qed.

Lemma testbit_above a w m : 0 <= a < 2 ^ w -> w <= m -> Z.testbit a m = false.
Proof.
  intros Ha Hm. destruct (Z.eq_dec a 0) as [->|Hne]; [apply Z.bits_0|].
  apply Z.bits_above_log2; [lia|].
  assert (Z.log2 a < w) by (apply Z.log2_lt_pow2; lia). lia.
Qed.

Lemma bound_of_bits a w : 0 <= w -> 0 <= a ->
  (forall m, w <= m -> Z.testbit a m = false) -> a < 2 ^ w.
Proof.
  intros Hw Ha H. destruct (Z.eq_dec a 0) as [->|Hne].
  - apply Z.pow_pos_nonneg; lia.
  - apply Z.log2_lt_pow2; [lia|].
    destruct (Z_lt_le_dec (Z.log2 a) w) as [?|Hle]; [assumption|].
    specialize (H (Z.log2 a) Hle). rewrite Z.bit_log2 in H by lia. discriminate.
Qed.

Lemma land_bound a b w : 0 <= w -> 0 <= a < 2 ^ w -> 0 <= Z.land a b < 2 ^ w.
Proof.
  intros Hw Ha.
  assert (H0 : 0 <= Z.land a b) by (apply Z.land_nonneg; left; lia).
  split; [exact H0|]. apply bound_of_bits; [lia|exact H0|].
  intros m Hm. rewrite Z.land_spec, (testbit_above a w) by lia. reflexivity.
Qed.

Lemma land_wrap_r t a z : 0 <= a < 2 ^ bits t -> Z.land a (wrap t z) = Z.land a z.
Proof.
  intros Ha. pose proof (bits_pos t).
  rewrite <- (land_mod_r a (wrap t z) (bits t)), wrap_mod, land_mod_r by lia. reflexivity.
Qed.

Lemma uac_size_t t : uac SIZE_T t = U64.
Proof. destruct t; reflexivity. Qed.

Lemma uac_same t : uac t t = promote t.
Proof. destruct t; reflexivity. Qed.

Lemma uac_idem ta tb : uac (uac ta tb) (uac ta tb) = uac ta tb.
Proof. destruct ta, tb; reflexivity. Qed.

Lemma promote_idem t : promote (promote t) = promote t.
Proof. destruct t; reflexivity. Qed.

Lemma uac_promote t : uac t (promote t) = promote t.
Proof. destruct t; reflexivity. Qed.

Lemma in_range_uac_unsigned T tb z :
  is_signed T = false -> 32 <= bits tb -> 0 <= z <= tmax T -> in_range (uac T tb) z = true.
Proof.
  intros HT Hb Hz. apply in_range_iff.
  (* the sixteen closed comparisons are decided by evaluation *)
  assert (tmin (uac T tb) <= 0 /\ tmax T <= tmax (uac T tb)); [|lia].
  clear Hz. destruct T; try discriminate HT;
    destruct tb; try (exfalso; apply Hb; reflexivity); split; discriminate.
Qed.

Lemma cbin_exact f ta tb a b :
  in_range (uac ta tb) a = true -> in_range (uac ta tb) b = true ->
  in_range (uac ta tb) (f a b) = true ->
  cbin f ta tb a b = Some (f a b).
Proof.
  intros Ha Hb Hr. unfold cbin, arith. rewrite (wrap_id _ a Ha), (wrap_id _ b Hb), Hr.
  destruct (is_signed _); [reflexivity|]. rewrite (wrap_id _ _ Hr). reflexivity.
Qed.

Lemma cbin_unsigned f ta tb a b :
  is_signed (uac ta tb) = false ->
  cbin f ta tb a b = Some (wrap (uac ta tb) (f (wrap (uac ta tb) a) (wrap (uac ta tb) b))).
Proof. unfold cbin, arith. intros ->. reflexivity. Qed.

Lemma cbin_in_range f ta tb a b s : cbin f ta tb a b = Some s -> in_range (uac ta tb) s = true.
Proof.
  unfold cbin, arith. destruct (is_signed _).
  - destruct (in_range _ _) eqn:E; [|discriminate]. now intros [= <-].
  - intros [= <-]. apply wrap_range.
Qed.

Lemma cbin_uac f ta tb ta' tb' a b : uac ta tb = uac ta' tb' -> cbin f ta tb a b = cbin f ta' tb' a b.
Proof. unfold cbin. intros ->. reflexivity. Qed.

(* both operands converted to the computation type first, as clang writes it *)
Lemma cbin_converted f ta tb a b :
  cbin f (uac ta tb) (uac ta tb) (ccast (uac ta tb) a) (ccast (uac ta tb) b) = cbin f ta tb a b.
Proof. unfold cbin, ccast. rewrite uac_idem, !wrap_wrap. reflexivity. Qed.

Lemma cneg_exact ta a : in_range (promote ta) (- a) = true -> cneg ta a = Some (- a).
Proof.
  intros H. unfold cneg, arith. rewrite H, (wrap_id _ _ H). destruct (is_signed _); reflexivity.
Qed.

(* arithmetic on a size of type T: the other operand has at least the rank
   of int or type T itself, and operands and result are sizes again *)
Lemma in_uac T tb z : is_signed T = false -> (bits tb < 32 -> tb = T) ->
  0 <= z <= tmax T -> in_range (uac T tb) z = true.
Proof.
  intros HT Htb Hz. destruct (Z.ltb_spec (bits tb) 32) as [Hb|Hb];
    [|apply in_range_uac_unsigned; assumption].
  rewrite (Htb Hb), uac_same. apply in_range_promote, in_range_iff. unfold tmin. rewrite HT. exact Hz.
Qed.

Lemma size_arith f T tb n k : is_signed T = false -> (bits tb < 32 -> tb = T) ->
  0 <= n <= tmax T -> 0 <= k <= tmax T -> 0 <= f n k <= tmax T ->
  cbin f T tb n k = Some (f n k).
Proof. intros. apply cbin_exact; apply in_uac; assumption. Qed.

Lemma cshl_promote T a n : cshl (promote T) a n = cshl T a n.
Proof. destruct T; reflexivity. Qed.

Lemma cbit_promote f T a b : cbit f (promote T) (promote T) a b = cbit f T (promote T) a b.
Proof. destruct T; reflexivity. Qed.

Lemma cshl_small T a n :
  0 <= n < CInt.bits (promote T) -> 0 <= a -> a * 2 ^ n <= tmax (promote T) ->
  cshl T a n = Some (a * 2 ^ n).
Proof.
  intros Hn Ha Hmax. unfold cshl.
  destruct (Z.ltb_spec n 0); [lia|].
  destruct (Z.leb_spec (CInt.bits (promote T)) n); [lia|]. cbn [orb].
  assert (Hr : in_range (promote T) (a * 2 ^ n) = true).
  { apply in_range_iff. split; [|exact Hmax].
    assert (0 <= a * 2 ^ n) by (apply Z.mul_nonneg_nonneg; [lia|apply Z.pow_nonneg; lia]).
    unfold tmin. destruct (is_signed (promote T)); [|lia].
    assert (0 < 2 ^ (CInt.bits (promote T) - 1)) by (apply Z.pow_pos_nonneg; lia). lia. }
  rewrite (wrap_id _ _ Hr).
  destruct (is_signed (promote T)) eqn:Hs; [|reflexivity].
  destruct (Z.ltb_spec a 0); [lia|].
  destruct (Z.leb_spec (2 ^ CInt.bits (promote T)) (a * 2 ^ n)) as [Hle|]; [|reflexivity].
  exfalso. unfold tmax in Hmax. rewrite Hs in Hmax.
  assert (2 ^ (CInt.bits (promote T) - 1) <= 2 ^ CInt.bits (promote T))
    by (apply Z.pow_le_mono_r; lia). lia.
Qed.

Lemma cbin_size_t f t a b :
  0 <= a < 2 ^ 64 -> 0 <= b < 2 ^ 64 -> 0 <= f a b < 2 ^ 64 ->
  cbin f SIZE_T t a b = Some (f a b).
Proof. intros. apply cbin_exact; rewrite uac_size_t; now apply in_range_u64. Qed.

Lemma cadd_size_t t a b : 0 <= a -> 0 <= b -> a + b < 2 ^ 64 ->
  cadd SIZE_T t a b = Some (a + b).
Proof. intros. apply cbin_size_t; lia. Qed.

Lemma cmul_size_t t a b : 0 <= a < 2 ^ 64 -> 0 <= b < 2 ^ 64 -> a * b < 2 ^ 64 ->
  cmul SIZE_T t a b = Some (a * b).
Proof. intros. apply cbin_size_t; nia. Qed.

Lemma cbin_size_t_range f t a b s : cbin f SIZE_T t a b = Some s -> 0 <= s < 2 ^ 64.
Proof. intros H. apply cbin_in_range in H. rewrite uac_size_t in H. now apply in_range_u64. Qed.
