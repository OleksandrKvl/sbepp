(* CursorRangeProofs.v — theorems about CursorRange.v (user-level
   cursor_range / cursor_subrange of a group, driver op `crange`). *)
From Coq Require Import ZArith List Bool Lia.
From Sbepp Require Import CInt CIntFacts Bytes BytesFacts Msg Layout Wire MsgSpec MsgProofs
  Cursor CursorSpec CursorProofs CursorRange.
Import ListNotations.
Local Open Scope Z_scope.

(* wire blockLength of a group of a value tree (first entry's block; background
   value for an empty group) *)
Definition wire_bl (be : bool) (d : dim) (bg : list Z) (es : ventries) : Z :=
  first_block_len es (dec be (slice bg (d_bl_off d) (tbytes (d_bl_t d)))).

Definition group_image (be : bool) (d : dim) (l : level) (bg : list Z) (es : ventries) : list Z :=
  dim_bytes be d bg (wire_bl be d bg es) (ecount es) ++ enc_entries be l es.

(* the view random access (Msg.group_at) yields for that image at [gpos] *)
Definition img_gview (be : bool) (d : dim) (bg : list Z) (es : ventries) (gpos : Z) : gview :=
  {| gv_pos := gpos; gv_bl := wire_bl be d bg es; gv_n := ecount es |}.

(* where the image puts entry [i] of the group at [gpos]; for i = number of
   entries: the end of the group *)
Definition entry_addr (be : bool) (d : dim) (l : level) (es : ventries) (gpos : Z) (i : nat) : Z :=
  gpos + d_size d + entries_prefix_len be l es i.

(* the image of a group of a well-formed value tree sits at offset [len pre]
   of the buffer [b]; hypotheses of the traversal theorem (T_entries /
   stmt_trav_message_enc') restricted to this group *)
Definition crange_embedded (be : bool) (d : dim) (cbl : Z) (l : level) (cl : clevel)
  (bg : list Z) (es : ventries) (b pre post : list Z) (fuel : nat) : Prop :=
  b = pre ++ group_image be d l bg es ++ post /\
  wf_groups be (GCons d cbl l GNil) (VGCons bg es VGNil) /\
  wf_clevel 0 l cl /\ fields_fit_es l es /\
  (is_flat l = true -> ecount es <= Z.of_nat fuel) /\
  flat_counts_le_es (Z.of_nat fuel) l es /\
  len b <= Z.of_nat fuel /\ len b < 2 ^ 64.


(* random access finds every entry where the image puts it *)
Definition stmt_entry_pos_enc : Prop :=
  forall be d cbl l bg es b pre post fuel i,
    b = pre ++ group_image be d l bg es ++ post ->
    wf_groups be (GCons d cbl l GNil) (VGCons bg es VGNil) ->
    len b <= Z.of_nat fuel -> 0 <= i < ecount es ->
    entry_pos be b fuel d l (img_gview be d bg es (len pre)) i
    = Some (entry_addr be d l es (len pre) (Z.to_nat i)).

(* every range whose preconditions hold visits exactly the entries
   start .. start+count-1 at the addresses the image puts them (= their
   random-access addresses) and leaves the cursor at entry start+count, which
   is the end of the group when start+count = numInGroup *)
Definition stmt_crange_enc : Prop :=
  forall be d cbl l cl bg es b pre post fuel mode s cnt,
    crange_embedded be d cbl l cl bg es b pre post fuel ->
    crange_bounds (ecount es) mode = Some (s, cnt) -> 0 <= s -> 0 <= cnt ->
    let g := img_gview be d bg es (len pre) in
    let addr := entry_addr be d l es (len pre) in
    run_crange be b fuel d l cl (len b) g mode
      = COk (map addr (seq (Z.to_nat s) (Z.to_nat cnt))) (addr (Z.to_nat (s + cnt))) /\
    (forall i, 0 <= i < ecount es -> entry_pos be b fuel d l g i = Some (addr (Z.to_nat i))) /\
    s + cnt <= ecount es /\
    addr (Z.to_nat (ecount es)) = len pre + len (group_image be d l bg es).

(* the same with the fuel the driver uses and the fuel-free side condition of
   stmt_trav_message_enc'' (no non-empty flat group has wire blockLength 0) *)
Definition stmt_crange_enc_default : Prop :=
  forall be d cbl l cl bg es pre post mode s cnt,
    let b := pre ++ group_image be d l bg es ++ post in
    wf_groups be (GCons d cbl l GNil) (VGCons bg es VGNil) ->
    wf_clevel 0 l cl -> fields_fit_es l es ->
    flat_blocks_pos_gs (GCons d cbl l GNil) (VGCons bg es VGNil) ->
    len b < 2 ^ 64 ->
    crange_bounds (ecount es) mode = Some (s, cnt) -> 0 <= s -> 0 <= cnt ->
    let addr := entry_addr be d l es (len pre) in
    run_crange be b (default_fuel b) d l cl (len b) (img_gview be d bg es (len pre)) mode
      = COk (map addr (seq (Z.to_nat s) (Z.to_nat cnt))) (addr (Z.to_nat (s + cnt))).

(* the driver command on a message image: group [k] of the level at [path] *)
Definition stmt_run_crange_at_enc : Prop :=
  forall be m cl hdrbg v pre post path k l' v' off d cbl sub bg es mode s cnt,
    let b := pre ++ enc_message be m hdrbg v ++ post in
    wf_message be m hdrbg v ->
    wf_clevel (m_hdr_size m) (m_level m) cl ->
    fields_fit (m_level m) v ->
    len b < 2 ^ 64 ->
    flat_blocks_pos (m_level m) v ->
    vresolve be path (m_level m) v = Some (l', v', off) ->
    groups_nth (level_groups l') k = Some (d, cbl, sub) ->
    vgroups_nth (vlevel_groups v') k = Some (bg, es) ->
    crange_bounds (ecount es) mode = Some (s, cnt) -> 0 <= s -> 0 <= cnt ->
    let gpos := len pre + m_hdr_size m + off + len (vblock v')
                + groups_prefix_len be (level_groups l') (vlevel_groups v') k in
    let addr := entry_addr be d sub es gpos in
    locate_group be b m (len pre) path k = Some (img_gview be d bg es gpos, d, cbl, sub) /\
    run_crange_at be b m cl (len pre) path k mode
      = COk (map addr (seq (Z.to_nat s) (Z.to_nat cnt))) (addr (Z.to_nat (s + cnt))) /\
    (forall i, 0 <= i < ecount es ->
       entry_pos be b (default_fuel b) d sub (img_gview be d bg es gpos) i
       = Some (addr (Z.to_nat i))).

Definition stmt_crange_pos_asserts : Prop :=
  forall be b fuel d l cl lvend g pos count,
    gv_n g <= pos ->
    run_crange be b fuel d l cl lvend g (CRFrom pos) = CAssert /\
    run_crange be b fuel d l cl lvend g (CRFromCount pos count) = CAssert.

Definition stmt_crange_count_asserts : Prop :=
  forall be b fuel d l cl lvend g pos count,
    gv_n g - pos < count ->
    run_crange be b fuel d l cl lvend g (CRFromCount pos count) = CAssert.

Definition stmt_crange_all_empty : Prop :=
  forall be b fuel d l cl lvend g,
    gv_n g <= 0 ->
    run_crange be b fuel d l cl lvend g CRAll = COk [] (gv_pos g + d_size d).

(* the assertion outcome comes from the preconditions only when they fail:
   with the preconditions satisfied, CAssert can only come from the traversal
   of an entry *)
Definition stmt_crange_bounds_spec : Prop :=
  forall n mode,
    match mode with
    | CRAll => crange_bounds n mode = Some (0, n)
    | CRFrom pos =>
      (pos < n -> crange_bounds n mode = Some (pos, n - pos)) /\
      (n <= pos -> crange_bounds n mode = None)
    | CRFromCount pos count =>
      (pos < n -> count <= n - pos -> crange_bounds n mode = Some (pos, count)) /\
      (n <= pos \/ n - pos < count -> crange_bounds n mode = None)
    end.

(* visiting c1 + c2 entries = visiting c1 entries and then, from the cursor
   this leaves, c2 more (any buffer; the model's iteration bound must cover the
   whole range) *)
Definition stmt_crange_visit_compose : Prop :=
  forall be b fuel l cl bl lvend c1 c2 c,
    0 <= c1 -> 0 <= c2 -> c1 + c2 <= Z.of_nat fuel ->
    crange_visit be b fuel l cl bl lvend (c1 + c2) c =
    match crange_visit be b fuel l cl bl lvend c1 c with
    | COk (a1, e1) c' =>
      match crange_visit be b fuel l cl bl lvend c2 c' with
      | COk (a2, e2) c'' => COk (a1 ++ a2, e1 ++ e2) c''
      | CAssert => CAssert
      | COob => COob
      end
    | CAssert => CAssert
    | COob => COob
    end.

(* on images, at the level of the driver op: cursor_subrange(pos, c1) leaves
   the cursor at the random-access address of entry pos+c1, so
   cursor_subrange(pos+c1, c2) may follow, and both together visit what
   cursor_subrange(pos, c1+c2) visits.  pos + c1 < numInGroup is required: the
   second call's own precondition (see crange_compose_naive_false) *)
Definition stmt_crange_compose_enc : Prop :=
  forall be d cbl l cl bg es b pre post fuel pos c1 c2,
    crange_embedded be d cbl l cl bg es b pre post fuel ->
    0 <= pos -> 0 <= c1 -> 0 <= c2 -> pos + c1 < ecount es -> pos + c1 + c2 <= ecount es ->
    let g := img_gview be d bg es (len pre) in
    exists a1 a2 f1 f2,
      run_crange be b fuel d l cl (len b) g (CRFromCount pos c1) = COk a1 f1 /\
      entry_pos be b fuel d l g (pos + c1) = Some f1 /\
      run_crange be b fuel d l cl (len b) g (CRFromCount (pos + c1) c2) = COk a2 f2 /\
      run_crange be b fuel d l cl (len b) g (CRFromCount pos (c1 + c2)) = COk (a1 ++ a2) f2.

(* the form without that side condition is false *)
Definition stmt_crange_compose_naive : Prop :=
  forall be b fuel d l cl lvend g pos c1 c2 a1 f1,
    0 <= pos -> 0 <= c1 -> 0 <= c2 ->
    run_crange be b fuel d l cl lvend g (CRFromCount pos c1) = COk a1 f1 ->
    run_crange be b fuel d l cl lvend g (CRFromCount pos (c1 + c2))
    = cres_map (app a1) (run_crange be b fuel d l cl lvend g (CRFromCount (pos + c1) c2)).

(* forgetting the address log, [cr_entries] IS the entry loop of
   [Cursor.trav_groups] ([CursorProofs.trav_entries], see
   [CursorProofs.trav_groups_cbind]) -- on any buffer *)
Definition stmt_cr_entries_is_trav_entries : Prop :=
  forall be b fuel l cl bl lvend j n c addrs acc,
    cres_map snd (cr_entries be b fuel l cl bl lvend j n c addrs acc)
    = trav_entries be b fuel l cl bl lvend j n c acc.

(* cursor_range(c) inside visit_children (the step of [trav_groups] for one
   group) and the user-level cursor_range(c) agree on ANY buffer: same outcome,
   same final cursor, and the events pushed are those of the user-level range *)
Definition stmt_crange_all_in_trav_groups : Prop :=
  forall be b fuel d cbl l rest cl crest v k first p c acc s g,
    cur_group WPlain first v p (d_size d) (fun _ => None) c = COk s (s + d_size d) ->
    group_at be b d s = Some g ->
    trav_groups be b fuel (GCons d cbl l rest) (CGCons cl crest) v k first p c acc =
    match run_crange_ev be b fuel d l cl (lv_end v) g CRAll with
    | COk (_, evs) c' =>
      trav_groups be b fuel rest crest v (S k) false
        (obind p (fun p0 => groups_end be b fuel (GCons d cbl l GNil) p0)) c'
        (rev evs ++ EGroup k s (gv_n g) :: acc)
    | CAssert => CAssert
    | COob => COob
    end.

(* the addresses a range reports are exactly the positions of the EEntry
   events of that range, each followed by the events of the complete traversal
   of that entry (any buffer) *)
Definition chunk_events (ch : Z * list event) : list event := EEntry (fst ch) :: snd ch.
Definition stmt_crange_events_shape : Prop :=
  forall be b fuel l cl bl lvend count c addrs evs c',
    crange_visit be b fuel l cl bl lvend count c = COk (addrs, evs) c' ->
    exists chunks : list (Z * list event),
      addrs = map fst chunks /\
      evs = concat (map chunk_events chunks) /\
      Forall (fun ch => exists cur',
                trav_level be b fuel l cl
                  {| lv_start := fst ch; lv_level := fst ch; lv_bl := bl; lv_end := lvend |}
                  (if is_empty_level l cl then fst ch + bl else fst ch) []
                = COk (rev (snd ch)) cur') chunks.

(* on images: cursor_range(c) reports every entry of the group, and its events
   are exactly the segment [ev_entries] that the complete-traversal theorem
   (stmt_trav_message_enc'': [ev_level] -> [ev_groups] =
   EGroup k pos n :: ev_entries be l es (pos + d_size d) ++ ...) lists for this
   group *)
Definition stmt_crange_all_events_enc : Prop :=
  forall be d cbl l cl bg es b pre post fuel,
    crange_embedded be d cbl l cl bg es b pre post fuel ->
    let addr := entry_addr be d l es (len pre) in
    run_crange_ev be b fuel d l cl (len b) (img_gview be d bg es (len pre)) CRAll
    = COk (map addr (seq 0 (Z.to_nat (ecount es))), ev_entries be l es (len pre + d_size d))
          (addr (Z.to_nat (ecount es))).

Lemma cr_entries_eq be b fuel l cl bl lvend j n c addrs acc :
  cr_entries be b fuel l cl bl lvend j n c addrs acc =
  if n <=? 0 then COk (addrs, acc) c else
  match j with
  | O => COob
  | S j' =>
    cbind (trav_level be b fuel l cl (entry_view bl lvend c) (entry_cursor l cl bl c)
             (EEntry c :: acc))
          (fun acc' c' => cr_entries be b fuel l cl bl lvend j' (n - 1) c' (c :: addrs) acc')
  end.
Proof. destruct j; reflexivity. Qed.

Lemma cr_entries_0 be b fuel l cl bl lvend j n c addrs acc : n <= 0 ->
  cr_entries be b fuel l cl bl lvend j n c addrs acc = COk (addrs, acc) c.
Proof. intros Hn. rewrite cr_entries_eq. destruct (Z.leb_spec n 0); [reflexivity|lia]. Qed.

Lemma cr_entries_S be b fuel l cl bl lvend j n c addrs acc : 0 < n ->
  cr_entries be b fuel l cl bl lvend (S j) n c addrs acc =
  cbind (trav_level be b fuel l cl (entry_view bl lvend c) (entry_cursor l cl bl c)
           (EEntry c :: acc))
        (fun acc' c' => cr_entries be b fuel l cl bl lvend j (n - 1) c' (c :: addrs) acc').
Proof. intros Hn. rewrite cr_entries_eq. destruct (Z.leb_spec n 0); [lia|reflexivity]. Qed.

Lemma group_image_seg {be d cbl l bg es b pre post} :
  b = pre ++ group_image be d l bg es ++ post ->
  seg b (len pre) (enc_groups be (GCons d cbl l GNil) (VGCons bg es VGNil)).
Proof. intros Hb. rewrite enc_groups_single. exact (seg_pres _ _ _ _ Hb). Qed.

Lemma group_image_entries {be d cbl l bg es b pre post} :
  b = pre ++ group_image be d l bg es ++ post ->
  wf_groups be (GCons d cbl l GNil) (VGCons bg es VGNil) ->
  wf_entries be l es /\ all_blocks_len es (wire_bl be d bg es) /\
  seg b (len pre + d_size d) (enc_entries be l es).
Proof.
  intros Hb Hwf.
  destruct (groups_cons_image be b d cbl l GNil bg es VGNil _ Hwf (group_image_seg Hb))
    as (_ & Hwe & Hall & Hs & _).
  auto.
Qed.

Theorem entry_pos_enc : stmt_entry_pos_enc.
Proof.
  unfold stmt_entry_pos_enc. intros be d cbl l bg es b pre post fuel i Hb Hwf Hfuel Hi.
  destruct (group_image_entries Hb Hwf) as (Hwe & Hall & Hs).
  destruct (ventries_nth_lt es (Z.to_nat i) ltac:(lia)) as [e He].
  pose proof (entry_pos_image be b fuel d l es _ _ _ e Hwe Hall Hfuel Hs He) as H.
  rewrite Z2Nat.id in H by lia. exact H.
Qed.
Print Assumptions entry_pos_enc.

Section Img.
  Context {be : bool} {b : list Z} {fuel : nat}.
  Context (Hfuel : len b <= Z.of_nat fuel) (Hlt : len b < 2 ^ 64).

  (* the traversal theorem for the view the range's iterator builds *)
  Lemma trav_entry_img l cl e pos bl acc :
    wf_level be l e -> wf_clevel 0 l cl -> fields_fit l e ->
    flat_counts_le (Z.of_nat fuel) l e ->
    seg b pos (enc_level be l e) -> len (vblock e) = bl ->
    trav_level be b fuel l cl (entry_view bl (len b) pos) (entry_cursor l cl bl pos) acc
    = COk (rev (ev_level be l e pos) ++ acc) (pos + len (enc_level be l e)).
  Proof.
    intros Hwe Hcl Hff Hfc Hs <-.
    apply (proj1 (T_all be b fuel Hfuel Hlt) e l cl 0); try assumption;
      cbn [entry_view lv_start lv_level lv_bl lv_end]; try reflexivity. lia.
  Qed.

  Lemma cr_entries_img l cl es bl p :
    wf_entries be l es -> wf_clevel 0 l cl -> fields_fit_es l es ->
    flat_counts_le_es (Z.of_nat fuel) l es -> all_blocks_len es bl ->
    seg b p (enc_entries be l es) ->
    forall k s j addrs acc, Z.of_nat (s + k) <= ecount es -> (k <= j)%nat ->
    cres_map fst (cr_entries be b fuel l cl bl (len b) j (Z.of_nat k)
                    (p + entries_prefix_len be l es s) addrs acc)
    = COk (rev (map (fun i => p + entries_prefix_len be l es i) (seq s k)) ++ addrs)
          (p + entries_prefix_len be l es (s + k)).
  Proof.
    intros Hwe Hcl Hff Hfc Hall Hs.
    induction k as [|k IH]; intros s j addrs acc Hsk Hj.
    - rewrite cr_entries_0, Nat.add_0_r by lia. reflexivity.
    - destruct j as [|j]; [lia|].
      destruct (ventries_nth_lt es s ltac:(lia)) as [e He].
      destruct (nth_entry_seg be l bl es s e He Hwe Hall) as (Hwfe & Hble & _ & HsI).
      rewrite cr_entries_S by lia.
      pose proof (ventries_nth_in es s e He) as Hin.
      rewrite (trav_entry_img l cl e _ bl _ Hwfe Hcl
                 (ventries_in (fields_fit l) (fields_fit_es l) (fun _ _ H => H) es e Hff Hin)
                 (ventries_in (flat_counts_le _ l) (flat_counts_le_es _ l) (fun _ _ H => H)
                    es e Hfc Hin) (seg_sub _ _ _ _ _ Hs HsI) Hble).
      cbn [cbind]. replace (Z.of_nat (S k) - 1) with (Z.of_nat k) by lia.
      rewrite <- Z.add_assoc, <- (prefix_len_S be l es s e He), IH, Nat.add_succ_comm by lia.
      cbn [seq map rev]. rewrite <- app_assoc. reflexivity.
  Qed.
End Img.

Lemma crange_bounds_inv n mode s cnt : crange_bounds n mode = Some (s, cnt) ->
  match mode with
  | CRAll => s = 0 /\ cnt = n
  | CRFrom pos => s = pos /\ cnt = n - pos /\ pos < n
  | CRFromCount pos count => s = pos /\ cnt = count /\ pos < n /\ count <= n - pos
  end.
Proof.
  destruct mode as [|pos|pos count]; cbn [crange_bounds].
  - intros [= <- <-]. split; reflexivity.
  - destruct (Z.ltb_spec pos n); [|discriminate]. intros [= <- <-]. repeat split; lia.
  - destruct (Z.ltb_spec pos n); [|discriminate].
    destruct (Z.leb_spec count (n - pos)); [|discriminate]. intros [= <- <-]. repeat split; lia.
Qed.

Lemma crange_fuel {be d cbl l cl bg es b pre post fuel} :
  crange_embedded be d cbl l cl bg es b pre post fuel -> ecount es <= Z.of_nat fuel.
Proof.
  intros (Hb & Hwf & _ & _ & Hflat & _ & Hfuel & _).
  destruct (group_image_entries Hb Hwf) as (Hwe & _ & Hs).
  exact (entries_fuel Hwe Hs Hfuel Hflat).
Qed.

Theorem crange_enc : stmt_crange_enc.
Proof.
  unfold stmt_crange_enc.
  intros be d cbl l cl bg es b pre post fuel mode s cnt Hemb Hbounds Hs0 Hc0.
  set (g := img_gview be d bg es (len pre)). set (addr := entry_addr be d l es (len pre)).
  pose proof (crange_fuel Hemb) as Hj.
  destruct Hemb as (Hb & Hwf & Hcl & Hff & _ & Hfc & Hfuel & Hlt).
  destruct (group_image_entries Hb Hwf) as (Hwe & Hall & Hs).
  assert (Hpos : forall i, 0 <= i < ecount es ->
            entry_pos be b fuel d l g i = Some (addr (Z.to_nat i))).
  { intros i Hi. exact (entry_pos_enc be d cbl l bg es b pre post fuel i Hb Hwf Hfuel Hi). }
  pose proof (ecount_nonneg es) as Hn0.
  pose proof (crange_bounds_inv _ _ _ _ Hbounds) as Hinv.
  assert (Hle : s + cnt <= ecount es) by (destruct mode; lia).
  split; [|split; [exact Hpos|split; [exact Hle|]]].
  - (* the cursor the driver starts with *)
    assert (Hstart : crange_start be b fuel d l g mode s = Some (addr (Z.to_nat s))).
    { destruct mode as [|pos|pos count]; cbn [crange_start]; [|apply Hpos; lia|apply Hpos; lia].
      destruct Hinv as [-> _]. unfold addr, entry_addr. cbn [Z.to_nat gv_pos g img_gview].
      rewrite prefix_len_0. f_equal. lia. }
    unfold run_crange, run_crange_ev. cbn [gv_n g img_gview]. rewrite Hbounds.
    change ({| gv_pos := len pre; gv_bl := wire_bl be d bg es; gv_n := ecount es |}) with g.
    rewrite Hstart. unfold crange_visit. cbn [gv_bl g img_gview].
    pose proof (cr_entries_img Hfuel Hlt l cl es _ _ Hwe Hcl Hff Hfc Hall Hs
                  (Z.to_nat cnt) (Z.to_nat s) fuel [] [] ltac:(lia) ltac:(lia)) as Himg.
    rewrite Z2Nat.id in Himg by lia.
    rewrite cres_map_map. cbn [fst]. rewrite <- (cres_map_map fst (@rev Z)).
    unfold addr at 1, entry_addr at 1. rewrite Himg. cbn [cres_map].
    rewrite app_nil_r, rev_involutive. unfold addr, entry_addr. do 3 f_equal. lia.
  - unfold addr, entry_addr, group_image. rewrite prefix_len_all, len_app by lia.
    rewrite wf_groups_cons in Hwf. cbv zeta in Hwf. destruct Hwf as (Hd & Hlbg & _).
    rewrite len_dim_bytes by assumption. lia.
Qed.
Print Assumptions crange_enc.

Theorem crange_bounds_spec : stmt_crange_bounds_spec.
Proof.
  unfold stmt_crange_bounds_spec. intros n mode.
  destruct mode as [|pos|pos count]; cbn [crange_bounds].
  - reflexivity.
  - destruct (Z.ltb_spec pos n); split; intros; try lia; reflexivity.
  - destruct (Z.ltb_spec pos n); destruct (Z.leb_spec count (n - pos));
      split; intros; try lia; reflexivity.
Qed.
Print Assumptions crange_bounds_spec.

Lemma crange_none_asserts be b fuel d l cl lvend g mode :
  crange_bounds (gv_n g) mode = None -> run_crange be b fuel d l cl lvend g mode = CAssert.
Proof. unfold run_crange, run_crange_ev. intros ->. reflexivity. Qed.

Theorem crange_pos_asserts : stmt_crange_pos_asserts.
Proof.
  intros be b fuel d l cl lvend g pos count Hpos. split; apply crange_none_asserts.
  - exact (proj2 (crange_bounds_spec _ (CRFrom pos)) Hpos).
  - exact (proj2 (crange_bounds_spec _ (CRFromCount pos count)) (or_introl Hpos)).
Qed.
Print Assumptions crange_pos_asserts.

Theorem crange_count_asserts : stmt_crange_count_asserts.
Proof.
  intros be b fuel d l cl lvend g pos count Hc. apply crange_none_asserts.
  exact (proj2 (crange_bounds_spec _ (CRFromCount pos count)) (or_intror Hc)).
Qed.
Print Assumptions crange_count_asserts.

Theorem crange_all_empty : stmt_crange_all_empty.
Proof.
  unfold stmt_crange_all_empty. intros be b fuel d l cl lvend g Hn.
  unfold run_crange, run_crange_ev, crange_visit. cbn [crange_bounds crange_start].
  rewrite cr_entries_0 by exact Hn. reflexivity.
Qed.
Print Assumptions crange_all_empty.

Lemma crange_embedded_default {be d cbl l cl bg es b pre post} :
  b = pre ++ group_image be d l bg es ++ post ->
  wf_groups be (GCons d cbl l GNil) (VGCons bg es VGNil) ->
  wf_clevel 0 l cl -> fields_fit_es l es ->
  flat_blocks_pos_gs (GCons d cbl l GNil) (VGCons bg es VGNil) ->
  len b < 2 ^ 64 ->
  crange_embedded be d cbl l cl bg es b pre post (default_fuel b).
Proof.
  intros Hb Hwf Hcl Hff Hpos Hlt.
  assert (HN : len (enc_groups be (GCons d cbl l GNil) (VGCons bg es VGNil))
               <= Z.of_nat (default_fuel b)).
  { rewrite enc_groups_single. pose proof (default_fuel_len b).
    pose proof (seg_bounds _ _ _ (seg_pres _ _ _ _ Hb)). unfold group_image, wire_bl in *. lia. }
  destruct (proj1 (proj2 (flat_counts_bound be _)) _ _ Hwf Hpos HN) as (H1 & H2 & _).
  unfold crange_embedded. repeat (split; [assumption|]).
  split; [apply default_fuel_len|exact Hlt].
Qed.

Theorem crange_enc_default : stmt_crange_enc_default.
Proof.
  unfold stmt_crange_enc_default. intros be d cbl l cl bg es pre post mode s cnt.
  set (b := pre ++ group_image be d l bg es ++ post).
  intros Hwf Hcl Hff Hpos Hlt Hbounds Hs0 Hc0.
  exact (proj1 (crange_enc be d cbl l cl bg es b pre post (default_fuel b) mode s cnt
                  (crange_embedded_default eq_refl Hwf Hcl Hff Hpos Hlt) Hbounds Hs0 Hc0)).
Qed.
Print Assumptions crange_enc_default.

(* random access finds group [k] of the level at [path] where the image puts it *)
Lemma locate_group_enc {be m hdrbg v b pre post path k l' v' off d cbl sub bg es} :
  wf_message be m hdrbg v -> b = pre ++ enc_message be m hdrbg v ++ post ->
  vresolve be path (m_level m) v = Some (l', v', off) ->
  groups_nth (level_groups l') k = Some (d, cbl, sub) ->
  vgroups_nth (vlevel_groups v') k = Some (bg, es) ->
  wf_groups be (GCons d cbl sub GNil) (VGCons bg es VGNil) /\
  exists pre1 post1,
    b = pre1 ++ group_image be d sub bg es ++ post1 /\
    len pre1 = len pre + m_hdr_size m + off + len (vblock v')
               + groups_prefix_len be (level_groups l') (vlevel_groups v') k /\
    locate_group be b m (len pre) path k = Some (img_gview be d bg es (len pre1), d, cbl, sub).
Proof.
  intros Hwf Hb Hres Hg Hvg.
  destruct (msg_resolve_off Hwf Hb Hres) as (Hwf' & Hs' & Hr).
  destruct (nth_group_at be b (default_fuel b) k _ _ _ bg es d cbl sub
              (proj1 (wf_level_parts be l' v' Hwf')) (default_fuel_len b)
              (proj1 (proj2 (level_image be l' v' b _ Hs'))) Hvg Hg)
    as (Hpos & Hwf1 & Hs1).
  split; [exact Hwf1|].
  pose proof (proj1 (groups_cons_image be b d cbl sub GNil bg es VGNil _ Hwf1 Hs1)) as Hga.
  rewrite enc_groups_single in Hs1. unfold seg in Hs1. destruct Hs1 as (pre1 & post1 & Hb1 & Hlen1).
  exists pre1, post1. split; [exact Hb1|]. split; [exact Hlen1|].
  unfold locate_group. rewrite Hr. cbn [obind]. rewrite Hpos. cbn [obind].
  rewrite Hlen1, Hga. reflexivity.
Qed.

Theorem run_crange_at_enc : stmt_run_crange_at_enc.
Proof.
  unfold stmt_run_crange_at_enc.
  intros be m cl hdrbg v pre post path k l' v' off d cbl sub bg es mode s cnt.
  set (b := pre ++ enc_message be m hdrbg v ++ post).
  intros Hwf Hcl Hff Hlt Hfp Hres Hg Hvg Hbounds Hs0 Hc0.
  destruct (locate_group_enc (b := b) Hwf eq_refl Hres Hg Hvg) as (Hwf1 & pre1 & post1 & Hb1 & <- & Hloc).
  destruct (vresolve_props be path (m_level m) v cl (m_hdr_size m) l' v' off Hres Hcl Hff Hfp)
    as (cl' & hdr' & Hcla & Hcl' & Hff' & Hfp').
  destruct (level_tables Hcl' Hff' Hfp' Hg Hvg)
    as (clk & Hck & Hwck & Hffe & Hfpg).
  destruct (crange_enc be d cbl sub clk bg es b pre1 post1 (default_fuel b) mode s cnt
              (crange_embedded_default Hb1 Hwf1 Hwck Hffe Hfpg Hlt) Hbounds Hs0 Hc0) as (Hrun & Hep & _ & _).
  split; [exact Hloc|]. split; [|exact Hep].
  unfold run_crange_at, group_clevel. rewrite Hloc, Hcla. cbn [obind]. rewrite Hck.
  exact Hrun.
Qed.
Print Assumptions run_crange_at_enc.

Theorem cr_entries_is_trav_entries : stmt_cr_entries_is_trav_entries.
Proof.
  unfold stmt_cr_entries_is_trav_entries. intros be b fuel l cl bl lvend.
  induction j as [|j IH]; intros n c addrs acc; rewrite cr_entries_eq, trav_entries_eq;
    destruct (n <=? 0); try reflexivity.
  rewrite cres_map_cbind. apply cbind_ext. intros acc' c'. apply IH.
Qed.
Print Assumptions cr_entries_is_trav_entries.

Lemma cr_entries_acc be b fuel l cl bl lvend : forall j n c addrs acc,
  cr_entries be b fuel l cl bl lvend j n c addrs acc
  = cres_map (fun r => (fst r ++ addrs, snd r ++ acc))
             (cr_entries be b fuel l cl bl lvend j n c [] []).
Proof.
  induction j as [|j IH]; intros n c addrs acc; rewrite !cr_entries_eq;
    destruct (n <=? 0); try reflexivity.
  rewrite (trav_level_appends be b fuel l cl _ _ (EEntry c :: acc)),
    (trav_level_appends be b fuel l cl _ _ [EEntry c]).
  destruct (trav_level be b fuel l cl (entry_view bl lvend c) (entry_cursor l cl bl c) [])
    as [a1 c1| |]; cbn [cres_app cres_map cbind]; [|reflexivity|reflexivity].
  rewrite (IH (n - 1) c1 (c :: addrs) (a1 ++ EEntry c :: acc)),
    (IH (n - 1) c1 [c] (a1 ++ [EEntry c])).
  destruct (cr_entries be b fuel l cl bl lvend j (n - 1) c1 [] []) as [[a2 e2] c2| |];
    cbn [cres_map fst snd]; [|reflexivity|reflexivity].
  rewrite <- !app_assoc. reflexivity.
Qed.

Theorem crange_all_in_trav_groups : stmt_crange_all_in_trav_groups.
Proof.
  unfold stmt_crange_all_in_trav_groups.
  intros be b fuel d cbl l rest cl crest v k first p c acc s g Hcg Hga.
  destruct (group_at_inv be b d s g Hga) as (Hbl & Hn & Hp).
  rewrite trav_groups_cbind, Hcg, Hbl, Hn, (trav_entries_appends be b fuel l cl _ _ fuel _ _ _),
    <- (cr_entries_is_trav_entries be b fuel l cl (gv_bl g) (lv_end v) fuel (gv_n g)
          (s + d_size d) [] []).
  unfold run_crange_ev, crange_visit. cbn [crange_bounds crange_start]. rewrite Hp.
  destruct (cr_entries be b fuel l cl (gv_bl g) (lv_end v) fuel (gv_n g) (s + d_size d) [] [])
    as [[a e] c'| |]; cbn [cres_app cres_map cbind fst snd]; [|reflexivity|reflexivity].
  rewrite rev_involutive. reflexivity.
Qed.
Print Assumptions crange_all_in_trav_groups.

Lemma cr_entries_chunks be b fuel l cl bl lvend : forall j n c addrs acc addrs' acc' c',
  cr_entries be b fuel l cl bl lvend j n c addrs acc = COk (addrs', acc') c' ->
  exists chunks : list (Z * list event),
    addrs' = rev (map fst chunks) ++ addrs /\
    acc' = rev (concat (map chunk_events chunks)) ++ acc /\
    Forall (fun ch => exists cur',
              trav_level be b fuel l cl
                {| lv_start := fst ch; lv_level := fst ch; lv_bl := bl; lv_end := lvend |}
                (if is_empty_level l cl then fst ch + bl else fst ch) []
              = COk (rev (snd ch)) cur') chunks.
Proof.
  induction j as [|j IH]; intros n c addrs acc addrs' acc' c' H; rewrite cr_entries_eq in H;
    (destruct (n <=? 0);
     [injection H as <- <- <-; exists []; repeat split; constructor|]); [discriminate H|].
  rewrite (trav_level_appends be b fuel l cl _ _ (EEntry c :: acc)) in H.
  destruct (trav_level be b fuel l cl (entry_view bl lvend c) (entry_cursor l cl bl c) [])
    as [a1 c1| |] eqn:Ht; cbn [cres_app cres_map cbind] in H; [|discriminate H|discriminate H].
  destruct (IH _ _ _ _ _ _ _ H) as (chunks & -> & -> & Hf).
  exists ((c, rev a1) :: chunks). split; [|split].
  - cbn [map fst rev]. rewrite <- app_assoc. reflexivity.
  - cbn [map concat]. unfold chunk_events at 2. cbn [fst snd].
    rewrite rev_app_distr. cbn [rev]. rewrite rev_involutive, <- !app_assoc. reflexivity.
  - constructor; [|exact Hf]. cbn [fst snd]. exists c1. rewrite rev_involutive. exact Ht.
Qed.

Theorem crange_events_shape : stmt_crange_events_shape.
Proof.
  unfold stmt_crange_events_shape, crange_visit.
  intros be b fuel l cl bl lvend count c addrs evs c' H.
  destruct (cr_entries be b fuel l cl bl lvend fuel count c [] []) as [[a e] c1| |] eqn:Hc;
    cbn [cres_map fst snd] in H; [|discriminate H|discriminate H].
  injection H as <- <- <-.
  apply cr_entries_chunks in Hc. destruct Hc as (chunks & -> & -> & Hf).
  exists chunks. rewrite !app_nil_r, !rev_involutive. repeat split. exact Hf.
Qed.
Print Assumptions crange_events_shape.

Theorem crange_all_events_enc : stmt_crange_all_events_enc.
Proof.
  unfold stmt_crange_all_events_enc. intros be d cbl l cl bg es b pre post fuel Hemb.
  set (addr := entry_addr be d l es (len pre)).
  pose proof (ecount_nonneg es) as Hn0.
  pose proof (crange_fuel Hemb) as Hj.
  destruct (crange_enc be d cbl l cl bg es b pre post fuel CRAll 0 (ecount es) Hemb eq_refl
              ltac:(lia) Hn0) as (Hrun & _ & _ & _).
  destruct Hemb as (Hb & Hwf & Hcl & Hff & _ & Hfc & Hfuel & Hlt).
  destruct (group_image_entries Hb Hwf) as (Hwe & Hall & Hs).
  (* the events: those of the entry loop of the complete traversal *)
  pose proof (proj2 (proj2 (T_all be b fuel Hfuel Hlt)) es l cl _ _ (len b) fuel []
                Hwe Hcl Hff Hfc Hall Hs eq_refl Hj) as Htr.
  rewrite <- (cr_entries_is_trav_entries be b fuel l cl _ (len b) fuel (ecount es) _ [] []),
    app_nil_r in Htr.
  unfold run_crange in Hrun. unfold run_crange_ev, crange_visit in *.
  cbn [crange_bounds crange_start gv_n gv_pos gv_bl img_gview] in *.
  destruct (cr_entries be b fuel l cl (wire_bl be d bg es) (len b) fuel (ecount es)
              (len pre + d_size d) [] [])
    as [[a e] c'| |]; cbn [cres_map fst snd] in *; [|discriminate Hrun|discriminate Hrun].
  injection Hrun as -> ->. injection Htr as ->. rewrite rev_involutive. reflexivity.
Qed.
Print Assumptions crange_all_events_enc.

Lemma cr_entries_fuel_irrel be b fuel l cl bl lvend : forall j j' n c addrs acc,
  n <= Z.of_nat j -> n <= Z.of_nat j' ->
  cr_entries be b fuel l cl bl lvend j n c addrs acc
  = cr_entries be b fuel l cl bl lvend j' n c addrs acc.
Proof.
  induction j as [|j IH]; intros j' n c addrs acc H1 H2; rewrite !cr_entries_eq;
    destruct (Z.leb_spec n 0); try reflexivity; [lia|].
  destruct j' as [|j']; [lia|]. apply cbind_ext. intros acc' c'. apply IH; lia.
Qed.

Lemma cr_entries_split be b fuel l cl bl lvend : forall k1 j n2 c addrs acc,
  0 <= n2 -> Z.of_nat k1 + n2 <= Z.of_nat j ->
  cr_entries be b fuel l cl bl lvend j (Z.of_nat k1 + n2) c addrs acc =
  cbind (cr_entries be b fuel l cl bl lvend j (Z.of_nat k1) c addrs acc)
        (fun r c' => cr_entries be b fuel l cl bl lvend j n2 c' (fst r) (snd r)).
Proof.
  induction k1 as [|k1 IH]; intros j n2 c addrs acc Hn2 Hj.
  - rewrite (cr_entries_0 be b fuel l cl bl lvend j (Z.of_nat 0)) by lia. reflexivity.
  - destruct j as [|j]; [lia|]. rewrite !cr_entries_S, cbind_assoc by lia.
    apply cbind_ext. intros acc' c'.
    replace (Z.of_nat (S k1) + n2 - 1) with (Z.of_nat k1 + n2) by lia.
    replace (Z.of_nat (S k1) - 1) with (Z.of_nat k1) by lia.
    rewrite IH by lia. apply cbind_ext. intros r c''. apply cr_entries_fuel_irrel; lia.
Qed.

Theorem crange_visit_compose : stmt_crange_visit_compose.
Proof.
  unfold stmt_crange_visit_compose, crange_visit.
  intros be b fuel l cl bl lvend c1 c2 c H1 H2 Hf.
  rewrite <- (Z2Nat.id c1 H1), cr_entries_split by lia.
  destruct (cr_entries be b fuel l cl bl lvend fuel (Z.of_nat (Z.to_nat c1)) c [] [])
    as [[a e] c'| |]; cbn [cres_map cbind fst snd]; [|reflexivity|reflexivity].
  rewrite (cr_entries_acc be b fuel l cl bl lvend fuel c2 c' a e).
  destruct (cr_entries be b fuel l cl bl lvend fuel c2 c' [] []) as [[a2 e2] c''| |];
    cbn [cres_map fst snd]; [|reflexivity|reflexivity].
  rewrite !rev_app_distr. reflexivity.
Qed.
Print Assumptions crange_visit_compose.

Theorem crange_compose_enc : stmt_crange_compose_enc.
Proof.
  unfold stmt_crange_compose_enc.
  intros be d cbl l cl bg es b pre post fuel pos c1 c2 Hemb Hp H1 H2 Hlt Hle.
  set (g := img_gview be d bg es (len pre)). set (addr := entry_addr be d l es (len pre)).
  set (n := ecount es) in *.
  assert (B : forall p c, 0 <= p -> 0 <= c -> p < n -> c <= n - p ->
            run_crange be b fuel d l cl (len b) g (CRFromCount p c)
            = COk (map addr (seq (Z.to_nat p) (Z.to_nat c))) (addr (Z.to_nat (p + c)))).
  { intros p c Hp0 Hc0 Hpn Hcn.
    exact (proj1 (crange_enc be d cbl l cl bg es b pre post fuel _ p c Hemb
                    (proj1 (crange_bounds_spec n (CRFromCount p c)) Hpn Hcn) Hp0 Hc0)). }
  exists (map addr (seq (Z.to_nat pos) (Z.to_nat c1))),
         (map addr (seq (Z.to_nat (pos + c1)) (Z.to_nat c2))),
         (addr (Z.to_nat (pos + c1))), (addr (Z.to_nat (pos + c1 + c2))).
  split; [apply B; lia|]. split.
  { destruct Hemb as (Hb & Hwf & _ & _ & _ & _ & Hfuel & _).
    apply (entry_pos_enc be d cbl l bg es b pre post fuel _ Hb Hwf Hfuel). fold n. lia. }
  split; [apply B; lia|].
  rewrite B, Z.add_assoc by lia.
  rewrite (Z2Nat.inj_add c1 c2), seq_app, map_app, (Z2Nat.inj_add pos c1) by lia. reflexivity.
Qed.
Print Assumptions crange_compose_enc.

(* non-vacuity: a concrete message *)
Module CRangeEx.
  (* dimension: blockLength u16 @0, numInGroup u16 @2 *)
  Definition d : dim :=
    {| d_size := 4; d_bl_off := 0; d_bl_t := U16; d_n_off := 2; d_n_t := U16; d_fills := [] |}.
  Definition lflat : level := Level [ {| f_off := 0; f_size := 2 |} ] GNil [].
  Definition linner : level := Level [ {| f_off := 0; f_size := 1 |} ] GNil [].
  (* entries of the nested group: a field, an inner flat group, a <data> *)
  Definition lnested : level :=
    Level [ {| f_off := 0; f_size := 1 |} ] (GCons d 1 linner GNil) [U8].
  Definition m : message :=
    {| m_hdr_size := 8; m_bl_off := 0; m_bl_t := U16; m_cbl := 1; m_fills := [];
       m_level := Level [ {| f_off := 0; f_size := 1 |} ]
                        (GCons d 2 lflat (GCons d 1 lnested GNil)) [] |}.
  Definition acc1 (abs sz : Z) : cacc :=
    {| ca_rel := 0; ca_abs := abs; ca_size := sz; ca_last := true; ca_view := false |}.
  Definition cl : clevel :=
    CLevel [acc1 8 1]
      (CGCons (CLevel [acc1 0 2] CGNil)
      (CGCons (CLevel [acc1 0 1] (CGCons (CLevel [acc1 0 1] CGNil) CGNil)) CGNil)).
  Definition hdrbg : list Z := [0;0;0;0;0;0;0;0].
  Definition dbg : list Z := [5;0;0;0].
  (* flat group: 3 entries *)
  Definition flat3 : ventries :=
    VECons (VLevel [1;2] VGNil [])
   (VECons (VLevel [3;4] VGNil [])
   (VECons (VLevel [5;6] VGNil []) VENil)).
  Definition inner2 : ventries :=
    VECons (VLevel [20] VGNil []) (VECons (VLevel [21] VGNil []) VENil).
  (* nested group: 2 entries with an inner group (2 / 0 entries) and inner data *)
  Definition nested2 : ventries :=
    VECons (VLevel [9] (VGCons dbg inner2 VGNil) [[10;11]])
   (VECons (VLevel [12] (VGCons dbg VENil VGNil) [[13]]) VENil).
  Definition v : vlevel := VLevel [7] (VGCons dbg flat3 (VGCons dbg nested2 VGNil)) [].
  Definition pre : list Z := [255;255].
  Definition post : list Z := [238].
  Definition b : list Z := pre ++ enc_message false m hdrbg v ++ post.

  Example buffer :
    b = [255; 255;  1; 0; 0; 0; 0; 0; 0; 0;  7;
         2; 0; 3; 0;  1; 2;  3; 4;  5; 6;
         1; 0; 2; 0;
           9;  1; 0; 2; 0;  20; 21;  2; 10; 11;
           12; 5; 0; 0; 0;  1; 13;
         238].
  Proof. vm_compute. reflexivity. Qed.

  (* the complete traversal, for comparison: the flat group is at 11 with
     entries at 15, 17, 19; the nested group at 21 with entries at 25, 35 *)
  Example complete_traversal :
    trav_message false b m cl 2 =
    COk [EField 0 10; EGroup 0 11 3; EEntry 15; EField 0 15; EEntry 17; EField 0 17;
         EEntry 19; EField 0 19;
         EGroup 1 21 2; EEntry 25; EField 0 25; EGroup 0 26 2; EEntry 30; EField 0 30;
         EEntry 31; EField 0 31; EData 0 32 2; EEntry 35; EField 0 35; EGroup 0 36 0;
         EData 0 40 1] 42.
  Proof. vm_compute. reflexivity. Qed.

  (* flat group (3 entries) *)
  Example flat_all : run_crange_at false b m cl 2 [] 0 CRAll = COk [15; 17; 19] 21.
  Proof. vm_compute. reflexivity. Qed.
  Example flat_from_1 : run_crange_at false b m cl 2 [] 0 (CRFrom 1) = COk [17; 19] 21.
  Proof. vm_compute. reflexivity. Qed.
  Example flat_from_1_count_1 :
    run_crange_at false b m cl 2 [] 0 (CRFromCount 1 1) = COk [17] 19.
  Proof. vm_compute. reflexivity. Qed.
  Example flat_from_1_count_0 :
    run_crange_at false b m cl 2 [] 0 (CRFromCount 1 0) = COk [] 17.
  Proof. vm_compute. reflexivity. Qed.
  (* failing preconditions *)
  Example flat_pos_eq_size : run_crange_at false b m cl 2 [] 0 (CRFromCount 3 0) = CAssert.
  Proof. vm_compute. reflexivity. Qed.
  Example flat_count_too_big : run_crange_at false b m cl 2 [] 0 (CRFromCount 1 3) = CAssert.
  Proof. vm_compute. reflexivity. Qed.

  (* nested group (2 entries, inner group and data) *)
  Example nested_all : run_crange_at false b m cl 2 [] 1 CRAll = COk [25; 35] 42.
  Proof. vm_compute. reflexivity. Qed.
  Example nested_from_1 : run_crange_at false b m cl 2 [] 1 (CRFrom 1) = COk [35] 42.
  Proof. vm_compute. reflexivity. Qed.
  Example nested_pos_eq_size : run_crange_at false b m cl 2 [] 1 (CRFrom 2) = CAssert.
  Proof. vm_compute. reflexivity. Qed.
  (* groups inside entries of the nested group *)
  Example inner_all : run_crange_at false b m cl 2 [SGroup 1 0] 0 CRAll = COk [30; 31] 32.
  Proof. vm_compute. reflexivity. Qed.
  Example inner_from_1_count_1 :
    run_crange_at false b m cl 2 [SGroup 1 0] 0 (CRFromCount 1 1) = COk [31] 32.
  Proof. vm_compute. reflexivity. Qed.
  Example inner_empty_all : run_crange_at false b m cl 2 [SGroup 1 1] 0 CRAll = COk [] 40.
  Proof. vm_compute. reflexivity. Qed.
  Example inner_empty_from_0 :
    run_crange_at false b m cl 2 [SGroup 1 1] 0 (CRFrom 0) = CAssert.
  Proof. vm_compute. reflexivity. Qed.
  (* no such group; truncated buffers: the size check of a field of entry 1
     fires / the dimension of the inner group of entry 1 is outside *)
  Example no_group : run_crange_at false b m cl 2 [] 2 CRAll = COob.
  Proof. vm_compute. reflexivity. Qed.
  Example truncated_assert : run_crange_at false (firstn 35 b) m cl 2 [] 1 CRAll = CAssert.
  Proof. vm_compute. reflexivity. Qed.
  Example truncated_oob : run_crange_at false (firstn 37 b) m cl 2 [] 1 CRAll = COob.
  Proof. vm_compute. reflexivity. Qed.

  (* the hypotheses of stmt_run_crange_at_enc hold for this message ... *)
  Lemma hyps :
    wf_message false m hdrbg v /\ wf_clevel (m_hdr_size m) (m_level m) cl /\
    fields_fit (m_level m) v /\ len b < 2 ^ 64 /\ flat_blocks_pos (m_level m) v.
  Proof.
    (* the conjuncts are split before they are evaluated: normalising the whole
       statement first is slow to check *)
    repeat split; vm_compute; try reflexivity; try discriminate; try (left; discriminate);
      repeat constructor; vm_compute; repeat split; discriminate.
  Qed.

  (* ... so the theorems apply to it; their right-hand sides (computed from the
     value tree only) evaluate to what the model computed above *)
  Example theorem_instance_inner :
    run_crange_at false b m cl (len pre) [SGroup 1 0] 0 (CRFromCount 1 1) = COk [31] 32.
  Proof.
    destruct hyps as (H1 & H2 & H3 & H4 & H5).
    pose proof (run_crange_at_enc false m cl hdrbg v pre post [SGroup 1 0] 0%nat
                  lnested (VLevel [9] (VGCons dbg inner2 VGNil) [[10;11]]) 15
                  d 1 linner dbg inner2 (CRFromCount 1 1) 1 1
                  H1 H2 H3 H4 H5 eq_refl eq_refl eq_refl eq_refl ltac:(lia) ltac:(lia)) as H.
    cbv zeta in H. destruct H as (_ & Hrun & _).
    unfold b. rewrite Hrun. vm_compute. reflexivity.
  Qed.

  Example theorem_instance_nested :
    run_crange_at false b m cl (len pre) [] 1 CRAll = COk [25; 35] 42.
  Proof.
    destruct hyps as (H1 & H2 & H3 & H4 & H5).
    pose proof (run_crange_at_enc false m cl hdrbg v pre post [] 1%nat
                  (m_level m) v 0 d 1 lnested dbg nested2 CRAll 0 2
                  H1 H2 H3 H4 H5 eq_refl eq_refl eq_refl eq_refl ltac:(lia) ltac:(lia)) as H.
    cbv zeta in H. destruct H as (_ & Hrun & _).
    unfold b. rewrite Hrun. vm_compute. reflexivity.
  Qed.

  Example theorem_instance_flat :
    run_crange_at false b m cl (len pre) [] 0 (CRFrom 1) = COk [17; 19] 21.
  Proof.
    destruct hyps as (H1 & H2 & H3 & H4 & H5).
    pose proof (run_crange_at_enc false m cl hdrbg v pre post [] 0%nat
                  (m_level m) v 0 d 2 lflat dbg flat3 (CRFrom 1) 1 2
                  H1 H2 H3 H4 H5 eq_refl eq_refl eq_refl eq_refl ltac:(lia) ltac:(lia)) as H.
    cbv zeta in H. destruct H as (_ & Hrun & _).
    unfold b. rewrite Hrun. vm_compute. reflexivity.
  Qed.

  (* composition without the side condition pos + c1 < numInGroup: subrange(1, 2)
     succeeds and ends the group, but "continuing" with subrange(3, 0) violates
     the precondition pos < size(), while subrange(1, 2 + 0) is fine *)
  Definition gflat : gview := {| gv_pos := 11; gv_bl := 2; gv_n := 3 |}.
  Definition clflat : clevel := CLevel [acc1 0 2] CGNil.
  Example compose_first :
    run_crange false b (default_fuel b) d lflat clflat (len b) gflat (CRFromCount 1 2)
    = COk [17; 19] 21.
  Proof. vm_compute. reflexivity. Qed.
  Example compose_second :
    run_crange false b (default_fuel b) d lflat clflat (len b) gflat (CRFromCount (1 + 2) 0)
    = CAssert.
  Proof. vm_compute. reflexivity. Qed.
  Example compose_whole :
    run_crange false b (default_fuel b) d lflat clflat (len b) gflat (CRFromCount 1 (2 + 0))
    = COk [17; 19] 21.
  Proof. vm_compute. reflexivity. Qed.
End CRangeEx.

Theorem crange_compose_naive_false : ~ stmt_crange_compose_naive.
Proof.
  intros H.
  specialize (H false CRangeEx.b (default_fuel CRangeEx.b) CRangeEx.d CRangeEx.lflat
                CRangeEx.clflat (len CRangeEx.b) CRangeEx.gflat 1 2 0 [17; 19] 21
                ltac:(lia) ltac:(lia) ltac:(lia) CRangeEx.compose_first).
  rewrite CRangeEx.compose_whole, CRangeEx.compose_second in H. discriminate H.
Qed.
Print Assumptions crange_compose_naive_false.
