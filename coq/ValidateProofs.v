(* ValidateProofs.v — proofs about Rules.v / Validate.v (C08).
   Each function of the validator is shown to decide a boolean, or to compute
   an option, written with the functions of Rules.v ([Spec], [Dec], [Ref]); the
   booleans of one run are [rules_ok] with its conjuncts grouped by pass. The
   result is [validate_spec], [validate] decides [rules_ok]: every other
   statement about [validate] is read off it by a case split on the outcome.
   [accepted_no_overlap] is about [rules_ok] alone. *)
From Coq Require Import ZArith List Bool Lia.
From Sbepp Require Import ListFacts Bytes Rules Validate.
Import ListNotations.
Local Open Scope Z_scope.
#[local] Arguments Z.mul : simpl never.
#[local] Arguments Z.add : simpl never.
#[local] Arguments Z.sub : simpl never.
#[local] Arguments Z.pow : simpl never.

Lemma check_true c : check true c = VOk tt.
Proof. reflexivity. Qed.

(* an outcome that is neither a crash nor fuel exhaustion *)
Definition regular {A} (x : voutcome A) : Prop :=
  match x with VOk _ | VErr _ => True | _ => False end.

Lemma regular_ok {A} (a : A) : regular (VOk a).
Proof. exact I. Qed.

Lemma regular_err {A} c : regular (@VErr A c).
Proof. exact I. Qed.

(* Every validator is specified the same way: its outcome is regular, a value
   it returns satisfies [I], and a rule-class error means [E]. *)
Definition Spec {A} (I : A -> Prop) (E : Prop) (r : voutcome A) : Prop :=
  match r with VOk a => I a | VErr _ => E | _ => False end.

Lemma Spec_bind {A B} {I : A -> Prop} {J : B -> Prop} {E E' : Prop} {x} {f : A -> voutcome B} :
  Spec I E x -> (E -> E') -> (forall a, I a -> Spec J E' (f a)) -> Spec J E' (bind x f).
Proof. destruct x; simpl; auto; contradiction. Qed.

Lemma Spec_imp {A} {I J : A -> Prop} {E E' : Prop} {r} :
  Spec I E r -> (forall a, I a -> J a) -> (E -> E') -> Spec J E' r.
Proof. destruct r; simpl; auto. Qed.

(* [Dec b I r]: [r] decides the boolean [b] *)
Definition Dec {A} (b : bool) (I : A -> Prop) : voutcome A -> Prop :=
  Spec (fun a => b = true /\ I a) (b = false).

Definition any {A} (_ : A) : Prop := True.

Lemma Dec_ret {A} {I : A -> Prop} {a} : I a -> Dec true I (VOk a).
Proof. split; auto. Qed.

Lemma Dec_check {b c} : Dec b any (check b c).
Proof. destruct b; repeat split. Qed.

(* the conjunction is computed in the order in which the checks run *)
Lemma Dec_bind {A B} {I : A -> Prop} {J : B -> Prop} {a b x} {f : A -> voutcome B} :
  Dec a I x -> (forall v, a = true -> I v -> Dec b J (f v)) -> Dec (a && b) J (bind x f).
Proof.
  intros Hx Hf. apply (Spec_bind Hx).
  - intros ->. reflexivity.
  - intros v [-> Hv]. exact (Hf v eq_refl Hv).
Qed.

Lemma Dec_seq {A B} {I : A -> Prop} {J : B -> Prop} {a b x} {y : voutcome B} :
  Dec a I x -> Dec b J y -> Dec (a && b) J (x ;;; y).
Proof. intros Hx Hy. apply (Dec_bind Hx). auto. Qed.

Lemma Dec_eq {A} {I : A -> Prop} {b b' r} : Dec b I r -> b = b' -> Dec b' I r.
Proof. intros H <-. exact H. Qed.

(* the checks of two loops that run as one, regrouped by loop *)
Lemma andb_interchange a b c d : (a && b) && (c && d) = (a && c) && (b && d).
Proof. destruct a, b, c; reflexivity. Qed.

Lemma Dec_imp {A} {I J : A -> Prop} {b r} : Dec b I r -> (forall a, I a -> J a) -> Dec b J r.
Proof. intros H HJ. apply (Spec_imp H); [intros a [? ?]; auto | auto]. Qed.

Lemma Dec_unless {A} {I : A -> Prop} {b} {c : bool} {e r} :
  Dec b I r -> Dec (negb c && b) I (if c then VErr e else r).
Proof. destruct c; [reflexivity | exact (fun H => H)]. Qed.

(* [Ref o r]: [r] computes the option [o] *)
Definition Ref {A} (o : option A) : voutcome A -> Prop := Spec (fun a => o = Some a) (o = None).

Definition is_some {A} (o : option A) : bool := if o then true else false.

Lemma Ref_bind {A B} {o : option A} {b : A -> bool} {J : B -> Prop} {x} {f : A -> voutcome B} :
  Ref o x -> (forall v, o = Some v -> Dec (b v) J (f v)) ->
  Dec (match o with Some v => b v | None => false end) J (bind x f).
Proof.
  intros Hx Hf. apply (Spec_bind Hx).
  - intros ->. reflexivity.
  - intros v ->. exact (Hf v eq_refl).
Qed.

Lemma Dec_Ref {A} {b} {x : voutcome unit} {z : A} :
  Dec b any x -> Ref (if b then Some z else None) (x ;;; VOk z).
Proof.
  intros Hx. apply (Spec_bind Hx).
  - intros ->. reflexivity.
  - intros _ [-> _]. reflexivity.
Qed.

(* iterating a check over a list; the validators' nested loops are instances
   up to conversion *)
Definition vall {A} (f : A -> voutcome unit) : list A -> voutcome unit :=
  fix go l := match l with [] => VOk tt | x :: r => f x ;;; go r end.

Lemma vall_spec {A} (f : A -> voutcome unit) (p : A -> bool) l :
  Forall (fun x => Dec (p x) any (f x)) l -> Dec (forallb p l) any (vall f l).
Proof.
  induction 1 as [|x r Hx _ IH]; simpl; [apply Dec_ret; exact I | exact (Dec_seq Hx IH)].
Qed.

Lemma vall_all {A} (f : A -> voutcome unit) (p : A -> bool) l :
  (forall x, Dec (p x) any (f x)) -> Dec (forallb p l) any (vall f l).
Proof. intros H. apply vall_spec, Forall_forall. auto. Qed.

Definition vfold {A S} (f : S -> A -> voutcome S) : S -> list A -> voutcome S :=
  fix go s l := match l with [] => VOk s | x :: r => s' <- f s x ;; go s' r end.

Lemma vfold_spec {A S} (f : S -> A -> voutcome S) (p : A -> bool) (I : S -> Prop) l :
  Forall (fun x => forall s, I s -> Dec (p x) I (f s x)) l ->
  forall s, I s -> Dec (forallb p l) I (vfold f s l).
Proof.
  induction 1 as [|x r Hx _ IH]; intros s Hs; simpl; [apply Dec_ret; exact Hs|].
  apply (Dec_bind (Hx s Hs)). intros s' _. apply IH.
Qed.

Definition PSpec (P : Prop) (r : voutcome unit) : Prop :=
  match r with VOk _ => P | VErr _ => ~ P | _ => False end.

Lemma PSpec_ok r P : PSpec P r -> (r = VOk tt <-> P).
Proof.
  destruct r as [[]| | |]; simpl; intros H; split; intros G; auto; try discriminate; try contradiction.
Qed.

Lemma PSpec_regular r P : PSpec P r -> regular r.
Proof. destruct r; simpl; auto. Qed.

Lemma Dec_PSpec {b r} : Dec b any r -> PSpec (b = true) r.
Proof. destruct r; simpl; [tauto | intros ->; discriminate | auto | auto]. Qed.

Lemma str_eqb_eq a b : str_eqb a b = true <-> a = b.
Proof.
  revert b. induction a as [|x a IH]; intros [|y b]; simpl; split; intros H; try discriminate; auto.
  - apply andb_true_iff in H. destruct H as [H1 H2]. apply Z.eqb_eq in H1. apply IH in H2. congruence.
  - inversion H; subst. rewrite Z.eqb_refl. simpl. apply IH. reflexivity.
Qed.

Lemma str_eqb_refl a : str_eqb a a = true.
Proof. apply str_eqb_eq. reflexivity. Qed.

Lemma str_eqb_neq a b : str_eqb a b = false <-> a <> b.
Proof. rewrite <- str_eqb_eq. destruct (str_eqb a b); split; congruence. Qed.

Lemma str_eqb_spec a b : reflect (a = b) (str_eqb a b).
Proof. apply iff_reflect. symmetry. apply str_eqb_eq. Qed.

Lemma mem_str_In x l : mem_str x l = true <-> In x l.
Proof. apply existsb_eqb_In, str_eqb_eq. Qed.

Lemma mem_str_false x l : mem_str x l = false <-> ~ In x l.
Proof. rewrite <- mem_str_In. destruct (mem_str x l); split; congruence. Qed.

Lemma mem_z_In x l : mem_z x l = true <-> In x l.
Proof.
  induction l as [|y l IH]; simpl.
  - split; [discriminate | tauto].
  - rewrite orb_true_iff, Z.eqb_eq, IH. split; intros [H|H]; auto.
Qed.

(* uniqueness is checked while iterating, against the keys seen so far *)
Section Fresh.
  Context {A : Type} (mem : A -> list A -> bool).
  Hypothesis mem_In : forall x l, mem x l = true <-> In x l.

  Definition nodupb : list A -> bool :=
    fix nd l := match l with [] => true | x :: r => negb (mem x r) && nd r end.

  Fixpoint freshb (seen l : list A) : bool :=
    match l with [] => true | x :: r => negb (mem x seen) && freshb (x :: seen) r end.

  Definition p_uniq : list A -> list A -> voutcome unit :=
    fix go seen l :=
      match l with
      | [] => VOk tt
      | x :: r => if mem x seen then VErr DuplicateName else go (x :: seen) r
      end.

  Definition fresh (seen l : list A) : Prop := NoDup l /\ forall x, In x l -> ~ In x seen.

  Lemma fresh_cons seen x l : fresh seen (x :: l) <-> ~ In x seen /\ fresh (x :: seen) l.
  Proof.
    unfold fresh. split.
    - intros [ND H]. inversion ND; subst. split; [apply H; left; auto|]. split; [assumption|].
      intros y Hy [<-|Hs]; [auto | apply (H y); [right|]; auto].
    - intros [Hx [ND H]]. split.
      + constructor; auto. intros Hi. apply (H x Hi). left; auto.
      + intros y [<-|Hy]; auto. intros Hs. apply (H y Hy). right; auto.
  Qed.

  Lemma negb_mem x l : negb (mem x l) = true <-> ~ In x l.
  Proof. rewrite <- mem_In. destruct (mem x l); simpl; split; congruence. Qed.

  Lemma freshb_fresh l : forall seen, freshb seen l = true <-> fresh seen l.
  Proof.
    induction l as [|x l IH]; intros seen; simpl.
    - split; auto. intros _. split; [constructor | intros ? []].
    - rewrite fresh_cons, andb_true_iff, negb_mem, IH. reflexivity.
  Qed.

  Lemma nodupb_NoDup l : nodupb l = true <-> NoDup l.
  Proof.
    induction l as [|x l IH]; simpl.
    - split; auto. intros _. constructor.
    - rewrite andb_true_iff, negb_mem, IH. split; [intros []; constructor; auto | intros H; inversion H; auto].
  Qed.

  Lemma freshb_nil l : freshb [] l = nodupb l.
  Proof.
    apply eq_true_iff_eq. rewrite freshb_fresh, nodupb_NoDup. unfold fresh. split; [tauto|].
    intros H. split; auto.
  Qed.

  Lemma p_uniq_spec l : forall seen, Dec (freshb seen l) any (p_uniq seen l).
  Proof.
    induction l as [|x l IH]; intros seen; simpl; [apply Dec_ret; exact I | apply Dec_unless, IH].
  Qed.
End Fresh.

Lemma nodup_str_NoDup l : nodup_str l = true <-> NoDup l.
Proof. exact (nodupb_NoDup mem_str mem_str_In l). Qed.

Lemma freshb_nil_str l : freshb mem_str [] l = nodup_str l.
Proof. exact (freshb_nil mem_str mem_str_In l). Qed.

Lemma p_unique_spec l : Dec (nodup_str l) any (p_unique [] l).
Proof. exact (Dec_eq (p_uniq_spec mem_str l []) (freshb_nil_str l)). Qed.

Lemma p_unique_z_spec l : forall seen,
  p_unique_z seen l = VOk tt <-> NoDup l /\ (forall x, In x l -> ~ In x seen).
Proof.
  intros seen. apply (iff_trans (PSpec_ok _ _ (Dec_PSpec (p_uniq_spec mem_z l seen)))).
  exact (freshb_fresh mem_z mem_z_In l seen).
Qed.

Section ElementInd.
  Variable P : element_def -> Prop.
  Hypothesis HT : forall t, P (EType t).
  Hypothesis HE : forall e, P (EEnum e).
  Hypothesis HS : forall s, P (ESet s).
  Hypothesis HR : forall n ty o, P (ERef n ty o).
  Hypothesis HC : forall n o els, Forall P els -> P (EComposite n o els).

  Fixpoint element_ind' (e : element_def) : P e :=
    match e with
    | EType t => HT t
    | EEnum en => HE en
    | ESet s => HS s
    | ERef n ty o => HR n ty o
    | EComposite n o els =>
      HC n o els ((fix go (els : list element_def) : Forall P els :=
                     match els with
                     | [] => Forall_nil P
                     | m :: r => Forall_cons m (element_ind' m) (go r)
                     end) els)
    end.
End ElementInd.

(* the nested elements of a composite, flattened *)
Fixpoint flatten_list (els : list element_def) : list element_def :=
  match els with [] => [] | m :: r => flatten m ++ flatten_list r end.

Lemma flatten_composite n o els :
  flatten (EComposite n o els) = EComposite n o els :: flatten_list els.
Proof. reflexivity. Qed.

Lemma flatten_list_flat_map els : flatten_list els = flat_map flatten els.
Proof. induction els as [|m r IH]; simpl; [reflexivity | rewrite IH; reflexivity]. Qed.

Lemma flatten_self e : In e (flatten e).
Proof. destruct e; simpl; auto. Qed.

Lemma in_flatten_list m els : In m (flatten_list els) <-> exists x, In x els /\ In m (flatten x).
Proof. rewrite flatten_list_flat_map. apply in_flat_map. Qed.

Lemma in_all_elements env m : In m (all_elements env) <-> exists e, In e env /\ In m (flatten e).
Proof. apply in_flat_map. Qed.

Lemma all_elements_self env e : In e env -> In e (all_elements env).
Proof. intros H. apply in_all_elements. exists e. split; [exact H | apply flatten_self]. Qed.

Lemma forallb_flatten_composite (P : element_def -> bool) n o els :
  forallb P (flatten (EComposite n o els)) =
  P (EComposite n o els) && forallb (fun m => forallb P (flatten m)) els.
Proof.
  rewrite flatten_composite. simpl. f_equal.
  induction els as [|m r IH]; simpl; [reflexivity | rewrite forallb_app, IH; reflexivity].
Qed.

Lemma flatten_trans e : forall x m, In x (flatten e) -> In m (flatten x) -> In m (flatten e).
Proof.
  induction e as [t|en|st|n ty o|n o els IHe] using element_ind'; intros x m Hx Hm;
    try (destruct Hx as [<-|[]]; exact Hm).
  rewrite flatten_composite in *. destruct Hx as [<-|Hx]; [exact Hm | right].
  apply in_flatten_list in Hx. destruct Hx as [y [Hy Hx]]. apply in_flatten_list. exists y. split; auto.
  rewrite Forall_forall in IHe. eapply IHe; eauto.
Qed.

Lemma all_elements_closed env m x : In m (all_elements env) -> In x (flatten m) -> In x (all_elements env).
Proof.
  rewrite !in_all_elements. intros [e [He Hm]] Hx. exists e. split; [exact He | eapply flatten_trans; eauto].
Qed.

(* what validate_types checks of one element: SBE names and the semantic rule *)
Definition e_sbe (env : list element_def) (m : element_def) : bool :=
  forallb is_symbolic (own_names m) && sem_ok env m.

Lemma find_value_ref_spec env r : Ref (resolve_value_ref env r) (v_find_value_ref env r).
Proof.
  unfold v_find_value_ref, resolve_value_ref.
  destruct (split_dot r) as [[en vn]|]; [|reflexivity].
  destruct (is_empty en || is_empty vn); [reflexivity|].
  destruct (get_encoding env en) as [[t|e|s|n ty o|n o els]|]; try reflexivity.
  destruct (find_value (e_values e) vn); reflexivity.
Qed.

Lemma v_opt_value_spec o p : Dec (opt_fits o p) any (v_opt_value o p).
Proof. destruct o; [apply Dec_check | apply Dec_ret; exact I]. Qed.

Definition const_sem (env : list element_def) (t : type_def) (p : prim) : bool :=
  match t_vref t, t_const t with
  | Some r, None => value_ref_ok env r p && (t_length t =? 1)
  | None, Some v =>
    match p with
    | PChar => v_len v <=? t_length t
    | _ => value_fits v p && (t_length t =? 1)
    end
  | _, _ => false
  end.

Lemma v_constant_value_spec env t p : Dec (const_sem env t p) any (v_constant_value env t p).
Proof.
  unfold v_constant_value, const_sem.
  destruct (t_vref t) as [r|], (t_const t) as [v|]; try reflexivity.
  - eapply Dec_eq.
    + apply (Ref_bind (b := fun ev => enum_value_fits (fst ev) (snd ev) p && (t_length t =? 1))
               (find_value_ref_spec env r)).
      intros ev _. eapply Dec_seq; apply Dec_check.
    + unfold value_ref_ok. destruct (resolve_value_ref env r) as [[e v]|]; reflexivity.
  - destruct p; try (eapply Dec_seq; apply Dec_check).
    apply (Dec_eq Dec_check). symmetry. apply Z.leb_antisym.
Qed.

Definition type_size (t : type_def) : option Z :=
  match prim_of_name (t_prim t) with Some p => Some (t_length t * psize p) | None => None end.

Lemma v_type_spec env t : Ref (if e_sbe env (EType t) then type_size t else None) (v_type env t).
Proof.
  unfold v_type, v_name, e_sbe, type_size. cbn [own_names forallb sem_ok ename].
  destruct (is_symbolic (t_name t)); [|reflexivity]. cbn [andb check bind]. unfold type_sem.
  destruct (prim_of_name (t_prim t)) as [p|]; [|reflexivity].
  apply Dec_Ref. fold (const_sem env t p).
  destruct (t_presence t); [| |apply v_constant_value_spec];
    (destruct (t_length t =? 1); [|apply Dec_check]); rewrite <- andb_assoc;
    (eapply Dec_seq; [apply v_opt_value_spec | eapply Dec_seq; [apply v_opt_value_spec|]]).
  - exact (Dec_ret I).
  - apply v_opt_value_spec.
Qed.

Lemma v_encoding_type_spec env ty : Ref (encoding_prim_name env ty) (v_encoding_type env ty).
Proof.
  unfold v_encoding_type, encoding_prim_name.
  destruct (prim_of_name ty); [reflexivity|].
  destruct (get_encoding env ty) as [[t|e|s|n ty' o|n o els]|]; try reflexivity.
  destruct (t_length t =? 1); reflexivity.
Qed.

(* the entries of an enum or a set: a name and a value each *)
Definition v_named {B} (test : B -> bool) (c : rule_class) : list (str * B) -> voutcome unit :=
  fix go l :=
    match l with
    | [] => VOk tt
    | (n, x) :: r => v_name n ;;; check (test x) c ;;; go r
    end.

Lemma v_named_spec {B} (test ck : B -> bool) c l :
  (forall x, test x = ck x) ->
  Dec (forallb is_symbolic (map fst l) && forallb (fun nx => ck (snd nx)) l) any (v_named test c l).
Proof.
  intros H. induction l as [|[n x] l IH]; simpl; [apply Dec_ret; exact I|].
  rewrite <- H. eapply Dec_eq; [exact (Dec_seq Dec_check (Dec_seq Dec_check IH))|].
  rewrite andb_assoc. apply andb_interchange.
Qed.

(* enums and sets are validated alike: name, encoding type, a test of the
   primitive type, the entries *)
Lemma v_coded_spec {B} env n ty (l : list (str * B)) (t : prim -> bool) (test ck : prim -> B -> bool) c c' c'' :
  (forall p x, test p x = ck p x) ->
  Ref (if forallb is_symbolic (n :: map fst l) &&
          match encoding_prim env ty with
          | Some p => t p && forallb (fun nx => ck p (snd nx)) l
          | None => false
          end
       then option_map psize (encoding_prim env ty) else None)
      (v_name n ;;;
       pn <- v_encoding_type env ty ;;
       match prim_of_name pn with
       | None => VErr c
       | Some p => check (t p) c' ;;; v_named (test p) c'' l ;;; VOk (psize p)
       end).
Proof.
  intros H. unfold v_name, encoding_prim. cbn [forallb].
  destruct (is_symbolic n); [|reflexivity]. cbn [andb check bind].
  apply (Spec_bind (v_encoding_type_spec env ty)).
  { intros ->. rewrite andb_false_r. reflexivity. }
  intros pn ->. destruct (prim_of_name pn) as [p|]; [|rewrite andb_false_r; reflexivity].
  destruct (t p); [|rewrite andb_false_r; reflexivity].
  apply Dec_Ref, v_named_spec, H.
Qed.

Lemma v_enum_spec env e :
  Ref (if e_sbe env (EEnum e) then option_map psize (encoding_prim env (e_type e)) else None) (v_enum env e).
Proof.
  exact (v_coded_spec env (e_name e) (e_type e) (e_values e) (fun p => negb (is_fp p)) _
           (fun p v => match p with PChar => v_len v =? 1 | _ => value_fits v p end) _ _ _
           (fun _ _ => eq_refl)).
Qed.

Lemma choice_bound s i : negb (8 * s - 1 <? i) = (i <? 8 * s).
Proof. destruct (Z.ltb_spec (8 * s - 1) i), (Z.ltb_spec i (8 * s)); simpl; auto; lia. Qed.

Lemma v_set_spec env s :
  Ref (if e_sbe env (ESet s) then option_map psize (encoding_prim env (s_type s)) else None) (v_set env s).
Proof.
  exact (v_coded_spec env (s_name s) (s_type s) (s_choices s) is_unsigned_prim
           (fun p i => negb (8 * psize p - 1 <? i)) (fun p i => i <? 8 * psize p) _ _ _
           (fun p i => choice_bound (psize p) i)).
Qed.

Definition item_of (env : list element_def) (m : element_def) (sz : Z) : option Z * option Z :=
  (eoffset m, if takes_no_space env m then None else Some sz).

Definition items_by (env : list element_def) (sz : element_def -> option Z) :=
  fix go (els : list element_def) : option (list (option Z * option Z)) :=
    match els with
    | [] => Some []
    | m :: r => match sz m, go r with
                | Some s, Some l => Some (item_of env m s :: l)
                | _, _ => None
                end
    end.

Definition members_end (env : list element_def) (sz : element_def -> option Z) :=
  fix items (els : list element_def) (acc : list (option Z * option Z)) : option Z :=
    match els with
    | [] => Some (end_of acc)
    | m :: r => match sz m with
                | None => None
                | Some s => items r (item_of env m s :: acc)
                end
    end.

Lemma items_of_by env els : items_of env els = items_by env (size_of env) els.
Proof.
  induction els as [|m r IH]; simpl; [reflexivity|].
  unfold member_item. rewrite IH. destruct (size_of env m); reflexivity.
Qed.

Lemma members_end_by env sz els : forall acc,
  members_end env sz els acc =
  option_map (fun items => end_of (rev items ++ acc)) (items_by env sz els).
Proof.
  induction els as [|m r IH]; intros acc; simpl; [reflexivity|].
  destruct (sz m) as [s|]; [|reflexivity]. rewrite IH.
  destruct (items_by env sz r); simpl; [rewrite <- app_assoc|]; reflexivity.
Qed.

Lemma items_by_ext env (s1 s2 : element_def -> option Z) els :
  Forall (fun m => s1 m = s2 m) els -> items_by env s1 els = items_by env s2 els.
Proof. induction 1 as [|m r Hm _ IH]; simpl; [|rewrite Hm, IH]; reflexivity. Qed.

Lemma items_by_mono env (s1 s2 : element_def -> option Z) els :
  Forall (fun m => forall z, s1 m = Some z -> s2 m = Some z) els ->
  forall items, items_by env s1 els = Some items -> items_by env s2 els = Some items.
Proof.
  induction 1 as [|m r Hm _ IH]; simpl; auto. intros items.
  destruct (s1 m) as [s|]; [|discriminate]. rewrite (Hm s eq_refl).
  destruct (items_by env s1 r) as [l|]; [|discriminate]. rewrite (IH l eq_refl). auto.
Qed.

(* one step of the size computation: [rec] for the target of a reference,
   [self] for the members of a composite *)
Definition size_step (env : list element_def) (rec self : element_def -> option Z) (e : element_def)
  : option Z :=
  match e with
  | EType t => type_size t
  | EEnum en => option_map psize (encoding_prim env (e_type en))
  | ESet st => option_map psize (encoding_prim env (s_type st))
  | ERef _ ty _ => match get_encoding env ty with Some tgt => rec tgt | None => None end
  | EComposite _ _ els => members_end env self els []
  end.

Lemma esize_S env f e : esize env (S f) e = size_step env (esize env f) (esize env (S f)) e.
Proof. destruct e; reflexivity. Qed.

Lemma esize_0 env e : esize env 0 e = None.
Proof. reflexivity. Qed.

(* [esize] restricted to the elements that pass [ok], at every node it visits *)
Fixpoint gchk (env : list element_def) (ok : element_def -> bool) (fuel : nat) (e : element_def)
         {struct fuel} : option Z :=
  match fuel with
  | O => None
  | S f => (fix go (e : element_def) : option Z :=
              if ok e then size_step env (gchk env ok f) go e else None) e
  end.

Lemma gchk_S env ok f e :
  gchk env ok (S f) e = if ok e then size_step env (gchk env ok f) (gchk env ok (S f)) e else None.
Proof. destruct e; reflexivity. Qed.

#[local] Arguments gchk : simpl never.
#[local] Arguments esize : simpl never.

Lemma esize_gchk env : forall f e, esize env f e = gchk env (fun _ => true) f e.
Proof.
  induction f as [|f IHf]; intros e; [reflexivity|].
  induction e as [t|en|st|n ty o|n o els IHe] using element_ind'; rewrite esize_S, gchk_S; cbn [size_step]; auto.
  - destruct (get_encoding env ty); auto.
  - rewrite !members_end_by, (items_by_ext _ _ _ _ IHe). reflexivity.
Qed.

Lemma get_encoding_In env ty e : get_encoding env ty = Some e -> In e env.
Proof.
  unfold get_encoding. generalize (to_lower ty) as n. induction env as [|x l IH]; simpl; [discriminate|].
  intros n. destruct (str_eqb (to_lower (ename x)) n); intros H; [inversion H; auto | eauto].
Qed.

Lemma lookup_name l n e : lookup l n = Some e -> to_lower (ename e) = n.
Proof.
  induction l as [|x l IH]; simpl; [discriminate|].
  destruct (str_eqb_spec (to_lower (ename x)) n) as [<-|]; intros H; [inversion H; reflexivity | auto].
Qed.

Lemma gchk_weaken env (ok1 ok2 : element_def -> bool) :
  (forall m, In m (all_elements env) -> ok1 m = true -> ok2 m = true) ->
  forall f g e z, (f <= g)%nat ->
  (forall m, In m (flatten e) -> ok1 m = true -> ok2 m = true) ->
  gchk env ok1 f e = Some z -> gchk env ok2 g e = Some z.
Proof.
  intros Henv. induction f as [|f IHf]; intros [|g] e z L; try discriminate; [destruct (Nat.nle_succ_0 _ L)|]. revert z.
  induction e as [t|en|st|n ty o|n o els IHe] using element_ind'; intros z He; rewrite !gchk_S;
    destruct (ok1 _) eqn:O1; try discriminate; rewrite (He _ (flatten_self _) O1); cbn [size_step]; auto.
  - destruct (get_encoding env ty) as [tgt|] eqn:EG; auto. apply IHf; [exact (le_S_n _ _ L)|].
    intros m Hm. apply Henv, in_all_elements. exists tgt. split; [eapply get_encoding_In; eauto | auto].
  - rewrite !members_end_by.
    destruct (items_by env (gchk env ok1 (S f)) els) as [items|] eqn:EI; [|discriminate].
    assert (HM : Forall (fun m => forall s, gchk env ok1 (S f) m = Some s -> gchk env ok2 (S g) m = Some s) els).
    { rewrite Forall_forall in *. intros m Hm s. apply IHe; auto.
      intros x Hx. apply He. rewrite flatten_composite. right. apply in_flatten_list. eauto. }
    rewrite (items_by_mono _ _ _ _ HM _ EI). auto.
Qed.

Lemma gchk_flat env ok : forall f e z, gchk env ok f e = Some z -> forallb ok (flatten e) = true.
Proof.
  induction f as [|f IHf]; intros e; [discriminate|].
  induction e as [t|en|st|n ty o|n o els IHe] using element_ind'; intros z; rewrite gchk_S;
    destruct (ok _) eqn:O; try discriminate; cbn [size_step]; intros H; try (simpl; rewrite O; reflexivity).
  rewrite forallb_flatten_composite, O. simpl. clear O.
  revert H. generalize (@nil (option Z * option Z)).
  induction IHe as [|m r Hm _ IHr]; intros acc H; simpl in *; auto.
  destruct (gchk env ok (S f) m) as [s|]; [|discriminate].
  rewrite (Hm s eq_refl). eauto.
Qed.

(* [chk env fuel e]: the size of [e], provided [e], the elements nested in it
   and the encodings they refer to all pass validate_types *)
Definition chk (env : list element_def) : nat -> element_def -> option Z := gchk env (e_sbe env).

Lemma chk_mono_le env f g e z : (f <= g)%nat -> chk env f e = Some z -> chk env g e = Some z.
Proof. intros L. apply gchk_weaken; auto. Qed.

Lemma chk_none_le env f g e : (f <= g)%nat -> chk env g e = None -> chk env f e = None.
Proof.
  intros L H. destruct (chk env f e) as [z|] eqn:E; auto.
  apply (chk_mono_le env f g) in E; auto. congruence.
Qed.

Lemma chk_esize env f g e z : (f <= g)%nat -> chk env f e = Some z -> esize env g e = Some z.
Proof. intros L. rewrite esize_gchk. apply gchk_weaken; auto. Qed.

Lemma esize_chk env :
  forallb (e_sbe env) (all_elements env) = true ->
  forall f e z, In e env -> esize env f e = Some z -> chk env f e = Some z.
Proof.
  intros H f e z He. rewrite forallb_forall in H. rewrite esize_gchk. apply gchk_weaken; auto.
  intros m Hm _. apply H, in_all_elements. eauto.
Qed.

Lemma chk_sbe env f e z : chk env (S f) e = Some z -> e_sbe env e = true.
Proof. unfold chk. rewrite gchk_S. destruct (e_sbe env e); [reflexivity | discriminate]. Qed.

(* every public encoding passes: the rules of all elements and the existence
   of all sizes *)
Definition all_chk (env l : list element_def) : bool :=
  forallb (fun e => is_some (chk env (S (length env)) e)) l.

Lemma types_chk env :
  all_chk env env =
  forallb (e_sbe env) (all_elements env) && forallb (fun e => is_some (size_of env e)) env.
Proof.
  unfold all_chk. apply eq_true_iff_eq. rewrite andb_true_iff, !forallb_forall. split.
  - intros H. split.
    + intros m Hm. apply in_all_elements in Hm. destruct Hm as [e [He Hm]]. specialize (H e He).
      destruct (chk env (S (length env)) e) eqn:E; [|discriminate].
      apply gchk_flat in E. rewrite forallb_forall in E. auto.
    + intros e He. specialize (H e He). destruct (chk env (S (length env)) e) eqn:E; [|discriminate].
      unfold size_of. rewrite (chk_esize _ _ _ _ _ (le_n _) E). reflexivity.
  - intros [H1 H2] e He. specialize (H2 e He). unfold size_of in H2.
    destruct (esize env (S (length env)) e) eqn:E; [|discriminate].
    rewrite (esize_chk env (proj2 (forallb_forall _ _) H1) _ _ _ He E). reflexivity.
Qed.

Definition keys (st : vstate) : list str := map fst st.

Definition is_complete (kv : str * option Z) : bool := match snd kv with Some _ => true | None => false end.

Definition ncomp (st : vstate) : nat := length (filter is_complete st).

Lemma ncomp_le st : (ncomp st <= length st)%nat.
Proof.
  unfold ncomp. induction st as [|kv st IH]; simpl; auto.
  destruct (is_complete kv); simpl; lia.
Qed.

Lemma assoc_cons n m v st :
  assoc n ((m, v) :: st) = if str_eqb m n then Some v else assoc n st.
Proof. reflexivity. Qed.

Lemma assoc_None n st : assoc n st = None <-> ~ In n (keys st).
Proof.
  induction st as [|[m v] st IH]; simpl; [tauto|].
  destruct (str_eqb_spec m n) as [->|N].
  - split; [discriminate | intros H; exfalso; apply H; auto].
  - rewrite IH. tauto.
Qed.

Lemma assoc_In n v st : assoc n st = Some v -> In n (keys st).
Proof.
  intros H. destruct (in_dec (list_eq_dec Z.eq_dec) n (keys st)) as [?|N]; auto.
  apply assoc_None in N. congruence.
Qed.

Lemma update_keys n z st : keys (update n z st) = keys st.
Proof.
  induction st as [|[m v] st IH]; simpl; auto.
  destruct (str_eqb m n); simpl; [reflexivity | rewrite IH; reflexivity].
Qed.

Lemma update_length n z st : length (update n z st) = length st.
Proof. rewrite <- (map_length fst), <- (map_length fst st). f_equal. apply update_keys. Qed.

Lemma assoc_update n m z st v :
  assoc n st = Some v ->
  assoc m (update n z st) = if str_eqb n m then Some (Some z) else assoc m st.
Proof.
  induction st as [|[k w] st IH]; simpl; [discriminate|].
  destruct (str_eqb_spec k n) as [->|N]; simpl.
  - destruct (str_eqb n m); reflexivity.
  - intros H. rewrite (IH H). destruct (str_eqb_spec k m) as [->|]; [|reflexivity].
    destruct (str_eqb_spec n m); [congruence | reflexivity].
Qed.

Lemma update_ncomp n z st : assoc n st = Some None -> ncomp (update n z st) = S (ncomp st).
Proof.
  unfold ncomp, is_complete. induction st as [|[k w] st IH]; simpl; [discriminate|].
  destruct (str_eqb k n); simpl; intros H.
  - inversion H; subst. reflexivity.
  - destruct w; simpl; rewrite (IH H); reflexivity.
Qed.

#[local] Arguments end_of : simpl never.

Lemma end_of_cons_some o s acc :
  end_of ((o, Some s) :: acc) = (match o with Some x => x | None => end_of acc end) + s.
Proof. destruct o; reflexivity. Qed.

Lemma end_of_cons_none o acc : end_of ((o, None) :: acc) = end_of acc.
Proof. destruct o; reflexivity. Qed.

(* the offset rule for one item placed after [acc] *)
Definition item_check (acc : list (option Z * option Z)) (it : option Z * option Z) : bool :=
  match it with (Some o, Some _) => end_of acc <=? o | _ => true end &&
  (end_of (it :: acc) <=? max_u64).

Lemma offsets_ok_from_cons acc it r :
  offsets_ok_from acc (it :: r) = item_check acc it && offsets_ok_from (it :: acc) r.
Proof. reflexivity. Qed.

Definition offs_ok (acc : list (option Z * option Z)) (o : option (list (option Z * option Z))) : bool :=
  match o with Some items => offsets_ok_from acc items | None => false end.

Lemma offs_ok_cons acc it o :
  offs_ok acc (match o with Some l => Some (it :: l) | None => None end) =
  item_check acc it && offs_ok (it :: acc) o.
Proof. destruct o; [apply offsets_ok_from_cons | symmetry; apply andb_false_r]. Qed.

Lemma end_of_nil_u64 : end_of [] <= max_u64.
Proof. discriminate. Qed.

(* one step of the running offset, for a composite member and for a field
   alike: a constant takes no space, anything else is placed by [v_place] *)
Lemma place_spec acc o (c : bool) sz :
  end_of acc <= max_u64 ->
  Dec (item_check acc (o, if c then None else Some sz))
      (fun cur => cur = end_of ((o, if c then None else Some sz) :: acc) /\ cur <= max_u64)
      (if c then VOk (end_of acc) else v_place true o (end_of acc) sz).
Proof.
  intros Hacc. unfold item_check.
  destruct c; [rewrite end_of_cons_none | rewrite end_of_cons_some; unfold v_place, add_size];
    destruct o as [o|]; simpl.
  1,2: rewrite (proj2 (Z.leb_le _ _) Hacc); apply Dec_ret; auto.
  - destruct (Z.ltb_spec o (end_of acc)), (Z.leb_spec (end_of acc) o); try lia; [reflexivity|].
    destruct (Z.ltb_spec (max_u64 - o) sz), (Z.leb_spec (o + sz) max_u64); try lia;
      [reflexivity | apply Dec_ret; auto].
  - destruct (Z.ltb_spec (max_u64 - end_of acc) sz), (Z.leb_spec (end_of acc + sz) max_u64); try lia;
      [reflexivity | apply Dec_ret; auto].
Qed.

Lemma offs_ok_items_cons env acc m r sz :
  size_of env m = Some sz ->
  offs_ok acc (items_of env (m :: r)) =
  item_check acc (item_of env m sz) && offs_ok (item_of env m sz :: acc) (items_of env r).
Proof. intros Hs. simpl. unfold member_item. rewrite Hs. apply offs_ok_cons. Qed.

Lemma chk_ref env f n ty o :
  chk env (S f) (ERef n ty o) =
  if is_symbolic n then match get_encoding env ty with Some tgt => chk env f tgt | None => None end else None.
Proof.
  unfold chk. rewrite gchk_S. unfold e_sbe. simpl.
  destruct (is_symbolic n), (get_encoding env ty); reflexivity.
Qed.

Lemma chk_composite env f n o els :
  chk env (S f) (EComposite n o els) =
  if is_symbolic n && offs_ok [] (items_of env els) then members_end env (chk env (S f)) els [] else None.
Proof. unfold chk. rewrite gchk_S. unfold e_sbe. simpl. rewrite andb_true_r. reflexivity. Qed.

Section Types.
  Variable env : list element_def.
  Hypothesis env_nodup : NoDup (map ename env).

  Lemma env_unique a b : In a env -> In b env -> ename a = ename b -> a = b.
  Proof. apply NoDup_map_unique; auto. Qed.

  (* a completed encoding has passed with as much fuel as there are completed
     encodings: reference chains only run through completed ones *)
  Definition Inv (st : vstate) : Prop :=
    NoDup (keys st) /\ incl (keys st) (map ename env) /\
    forall e z, In e env -> assoc (ename e) st = Some (Some z) -> chk env (ncomp st) e = Some z.

  (* an entry only changes from absent to complete *)
  Definition ext1 (a b : option (option Z)) : Prop :=
    match a with None => b <> Some None | Some _ => b = a end.

  (* the length is carried along because the recursive call is specified only
     for states at least as long as the one it was first given (see [N] below),
     and a member of a composite is validated in the state its predecessors left *)
  Definition Ext (st st' : vstate) : Prop :=
    (forall n, ext1 (assoc n st) (assoc n st')) /\
    (ncomp st <= ncomp st')%nat /\ (length st <= length st')%nat.

  Lemma Ext_refl st : Ext st st.
  Proof. split; [|lia]. intros n. destruct (assoc n st); simpl; [reflexivity | discriminate]. Qed.

  Lemma Ext_trans a b c : Ext a b -> Ext b c -> Ext a c.
  Proof.
    intros [A A'] [B B']. split; [|lia]. intros n. specialize (A n). specialize (B n).
    destruct (assoc n a); simpl in *; [rewrite A in B; exact B|].
    destruct (assoc n b) as [[z|]|]; simpl in B; congruence.
  Qed.

  Lemma Ext_done st st' n z : Ext st st' -> assoc n st = Some (Some z) -> assoc n st' = Some (Some z).
  Proof. intros [E _] H. specialize (E n). rewrite H in E. exact E. Qed.

  Lemma Ext_open st st' n : Ext st st' -> assoc n st = Some None <-> assoc n st' = Some None.
  Proof.
    intros [E _]. specialize (E n). destruct (assoc n st); simpl in E; [rewrite E; reflexivity|].
    split; [discriminate | intros H; destruct (E H)].
  Qed.

  Lemma Inv_bound st : Inv st -> (length st <= length env)%nat.
  Proof.
    intros [K1 [K2 _]]. pose proof (NoDup_incl_length K1 K2) as HL.
    unfold keys in HL. rewrite !map_length in HL. exact HL.
  Qed.

  Lemma Inv_size_of st e z : Inv st -> chk env (S (ncomp st)) e = Some z -> size_of env e = Some z.
  Proof. intros HI. apply chk_esize. pose proof (Inv_bound st HI). pose proof (ncomp_le st). lia. Qed.

  (* every encoding in progress (opened, not yet closed) fails with fuel [f] *)
  Definition ip_fail (st : vstate) (f : nat) : Prop :=
    forall p, In p env -> assoc (ename p) st = Some None -> chk env f p = None.

  Lemma ip_fail_ext st st' f : Ext st st' -> ip_fail st f -> ip_fail st' f.
  Proof. intros E H p Hp Ha. apply H; auto. apply (Ext_open _ _ _ E), Ha. Qed.

  Lemma ip_fail_le st f g : (f <= g)%nat -> ip_fail st g -> ip_fail st f.
  Proof. intros L H p Hp Ha. eapply chk_none_le; eauto. Qed.

  (* an error means failure at every fuel at which the encodings in progress fail *)
  Definition PubSpec (st : vstate) (e : element_def) : voutcome vstate -> Prop :=
    Spec (fun st' => Inv st' /\ Ext st st' /\ exists z, assoc (ename e) st' = Some (Some z))
         (forall f, ip_fail st f -> chk env f e = None).

  Definition ElemSpec (st : vstate) (e : element_def) : voutcome (vstate * Z) -> Prop :=
    Spec (fun r => Inv (fst r) /\ Ext st (fst r) /\ chk env (S (ncomp (fst r))) e = Some (snd r))
         (forall f, ip_fail st f -> chk env (S f) e = None).

  (* elements whose validation does not touch the state *)
  Lemma leaf_spec st e o (x : voutcome Z) :
    Inv st -> Ref o x -> (forall f, chk env (S f) e = o) -> ElemSpec st e (z <- x ;; VOk (st, z)).
  Proof.
    intros HI Hx Hc. apply (Spec_bind Hx).
    - intros -> f _. apply Hc.
    - intros z ->. split; [exact HI|]. split; [apply Ext_refl | apply Hc].
  Qed.

  Lemma is_const_ok m :
    sem_ok env m = true -> v_is_constant_element env m = VOk (takes_no_space env m).
  Proof. destruct m; simpl; auto. destruct (get_encoding env type); [reflexivity | discriminate]. Qed.

  Definition v_members (rec : vstate -> element_def -> voutcome vstate) :=
    fix go (st : vstate) (els : list element_def) (cur : Z) : voutcome (vstate * Z) :=
      match els with
      | [] => VOk (st, cur)
      | m :: r =>
        sz <- v_elem true env rec st m ;;
        c <- v_is_constant_element env m ;;
        cur' <- (if c then VOk cur else v_place true (eoffset m) cur (snd sz)) ;;
        go (fst sz) r cur'
      end.

  Lemma v_elem_composite rec st n o els :
    v_elem true env rec st (EComposite n o els) = (v_name n ;;; v_members rec st els 0).
  Proof. reflexivity. Qed.

  Section Elem.
    Variable rec : vstate -> element_def -> voutcome vstate.
    (* [rec] is [v_public] with one unit of fuel less; it is specified only for
       states of length at least [N], one more than the state in which the
       enclosing encoding was opened: fuel + length never drops below
       [length env + 1], which is what [v_public_spec] needs of its fuel *)
    Variable N : nat.
    Hypothesis rec_spec :
      forall st tgt, Inv st -> (N <= length st)%nat -> In tgt env -> PubSpec st tgt (rec st tgt).

    Definition ElemOK (m : element_def) : Prop :=
      forall st, Inv st -> (N <= length st)%nat -> ElemSpec st m (v_elem true env rec st m).

    (* the members loop establishes, item by item, what [sem_ok] says of the
       composite; an error is a member that fails or an offset out of order *)
    Lemma v_members_spec els : Forall ElemOK els ->
      forall st acc, Inv st -> (N <= length st)%nat -> end_of acc <= max_u64 ->
      Spec (fun r => Inv (fst r) /\ Ext st (fst r) /\ offs_ok acc (items_of env els) = true /\
              option_map (fun items => end_of (rev items ++ acc))
                         (items_by env (chk env (S (ncomp (fst r)))) els) = Some (snd r))
           (forall f, ip_fail st f ->
              items_by env (chk env (S f)) els = None \/ offs_ok acc (items_of env els) = false)
           (v_members rec st els (end_of acc)).
    Proof.
      induction 1 as [|m r Hm _ IH]; intros st acc HI HN Hacc; cbn [v_members].
      { split; auto. split; [apply Ext_refl | auto]. }
      apply (Spec_bind (Hm st HI HN)).
      { intros Hf f Hip. left. simpl. rewrite (Hf f Hip). reflexivity. }
      intros [st1 sz] [HI1 [HE1 Hc1]]. simpl in HI1, HE1, Hc1.
      assert (HN1 : (N <= length st1)%nat) by (destruct HE1 as [_ [_ E4]]; lia).
      pose proof (offs_ok_items_cons env acc m r sz (Inv_size_of _ _ _ HI1 Hc1)) as Ho.
      rewrite is_const_ok by (apply chk_sbe, andb_true_iff in Hc1; apply Hc1).
      cbn [bind fst snd].
      apply (Spec_bind (place_spec acc (eoffset m) (takes_no_space env m) sz Hacc));
        fold (item_of env m sz).
      { intros Hck f _. right. rewrite Ho, Hck. reflexivity. }
      intros c [Hck [-> Hc]].
      apply (Spec_imp (IH st1 (item_of env m sz :: acc) HI1 HN1 Hc)).
      - intros [st2 z] [HI2 [HE2 [Ho2 Hz]]]. simpl in *.
        split; auto. split; [eapply Ext_trans; eauto|]. split; [rewrite Ho, Hck; exact Ho2|].
        assert (L : (S (ncomp st1) <= S (ncomp st2))%nat) by (destruct HE2 as [_ [E3 _]]; lia).
        rewrite (chk_mono_le _ _ _ _ _ L Hc1).
        destruct (items_by env _ r) as [items|]; [|discriminate]. simpl in *. rewrite <- app_assoc. exact Hz.
      - intros Hf f Hip. destruct (Hf f (ip_fail_ext _ _ _ HE1 Hip)) as [A|B].
        + left. simpl. rewrite A. destruct (chk env (S f) m); reflexivity.
        + right. rewrite Ho, B. apply andb_false_r.
    Qed.

    Lemma v_elem_spec : forall e, ElemOK e.
    Proof.
      induction e as [t|en|st0|n ty o|n o els IHe] using element_ind'; intros st HI HN.
      - exact (leaf_spec st (EType t) _ _ HI (v_type_spec env t) (fun f => gchk_S _ _ f _)).
      - exact (leaf_spec st (EEnum en) _ _ HI (v_enum_spec env en) (fun f => gchk_S _ _ f _)).
      - exact (leaf_spec st (ESet st0) _ _ HI (v_set_spec env st0) (fun f => gchk_S _ _ f _)).
      - pose proof (fun f => chk_ref env f n ty o) as Hn.
        simpl. unfold v_name, ElemSpec. destruct (is_symbolic n); [|intros f _; apply Hn].
        destruct (get_encoding env ty) as [tgt|] eqn:EG; [|intros f _; apply Hn].
        pose proof (get_encoding_In _ _ _ EG) as Ht. cbn [check bind].
        apply (Spec_bind (rec_spec st tgt HI HN Ht)).
        + intros HR f Hf. rewrite Hn. apply HR, Hf.
        + intros st1 [HI1 [HE1 [z Hz]]]. unfold ctx_get. rewrite Hz.
          split; auto. split; auto. simpl. rewrite Hn. apply HI1; auto.
      - pose proof (fun f => chk_composite env f n o els) as Hn.
        rewrite v_elem_composite. unfold v_name, ElemSpec.
        destruct (is_symbolic n); [|intros f _; apply Hn]. cbn [check bind andb] in *.
        apply (Spec_imp (v_members_spec els IHe st [] HI HN end_of_nil_u64)).
        + intros [st1 z] [HI1 [HE1 [Ho Hz]]]. simpl in *. split; auto. split; auto.
          rewrite Hn, Ho, members_end_by. exact Hz.
        + intros Hf f Hip. rewrite Hn, members_end_by.
          destruct (Hf f Hip) as [-> | ->]; [destruct (offs_ok _ _)|]; reflexivity.
    Qed.
  End Elem.

  Lemma ncomp_cons_none n st : ncomp ((n, None) :: st) = ncomp st.
  Proof. reflexivity. Qed.

  (* opening an encoding ... *)
  Lemma Inv_cons st e : Inv st -> In e env -> assoc (ename e) st = None -> Inv ((ename e, None) :: st).
  Proof.
    intros [K1 [K2 K3]] He HA. split; [|split].
    - simpl. constructor; auto. apply assoc_None; auto.
    - simpl. intros x [<-|Hx]; [apply in_map; auto | apply K2; auto].
    - intros p z Hp. rewrite assoc_cons, ncomp_cons_none.
      destruct (str_eqb (ename e) (ename p)); [discriminate | apply K3; auto].
  Qed.

  (* ... and closing it with its size *)
  Lemma Inv_update st st2 e z :
    In e env -> assoc (ename e) st = None -> Inv st2 -> Ext ((ename e, None) :: st) st2 ->
    chk env (S (ncomp st2)) e = Some z ->
    Inv (update (ename e) z st2) /\ Ext st (update (ename e) z st2) /\
    assoc (ename e) (update (ename e) z st2) = Some (Some z).
  Proof.
    intros He EA [K1 [K2 K3]] HE Hc.
    assert (Hip : assoc (ename e) st2 = Some None).
    { apply (Ext_open _ _ _ HE). rewrite assoc_cons, str_eqb_refl. reflexivity. }
    destruct HE as [E1 [E3 E4]]. rewrite ncomp_cons_none in E3. simpl in E4.
    pose proof (update_ncomp (ename e) z st2 Hip) as C1.
    pose proof (update_length (ename e) z st2) as C2.
    pose proof (fun m => assoc_update (ename e) m z st2 _ Hip) as HU.
    split; [|split].
    - split; [|split]; try (rewrite update_keys; assumption).
      intros p zp Hp. rewrite HU, C1. destruct (str_eqb_spec (ename e) (ename p)) as [Q|_]; intros X.
      + rewrite <- (env_unique e p He Hp Q). inversion X; subst. exact Hc.
      + apply (chk_mono_le _ (ncomp st2)); auto.
    - split; [|lia]. intros m. specialize (E1 m). rewrite assoc_cons in E1. rewrite HU.
      destruct (str_eqb_spec (ename e) m) as [Q|_]; [rewrite <- Q, EA; discriminate | exact E1].
    - rewrite HU, str_eqb_refl. reflexivity.
  Qed.

  (* an encoding that fails whenever it is assumed to fail while in progress fails:
     a reference chain that comes back to it needs ever more fuel *)
  Lemma ip_fail_open st e : In e env ->
    (forall f, ip_fail ((ename e, None) :: st) f -> chk env (S f) e = None) ->
    forall f, ip_fail st f -> chk env f e = None.
  Proof.
    intros He HE. induction f as [|g IHg]; intros Hfail; [reflexivity|].
    apply HE. intros p Hp Hap. rewrite assoc_cons in Hap.
    destruct (str_eqb_spec (ename e) (ename p)) as [Q|_].
    - rewrite <- (env_unique e p He Hp Q). apply IHg. eapply ip_fail_le; [|exact Hfail]. lia.
    - eapply chk_none_le; [|apply Hfail; auto]. lia.
  Qed.

  (* a nested call finds the state longer, by the entry of the encoding that
     called it, and no state is longer than [env]: so the fuel never runs out *)
  Lemma v_public_spec : forall fuel st e,
    Inv st -> In e env -> (length env + 1 <= fuel + length st)%nat ->
    PubSpec st e (v_public true env fuel st e).
  Proof.
    induction fuel as [|fuel IH]; intros st e HI He Hf.
    { exfalso. pose proof (Inv_bound st HI). lia. }
    simpl. destruct (assoc (ename e) st) as [[z|]|] eqn:EA.
    - split; auto. split; [apply Ext_refl | eauto].
    - intros f Hfail. apply Hfail; auto.
    - assert (Hrec : forall st' tgt, Inv st' -> (S (length st) <= length st')%nat -> In tgt env ->
                                     PubSpec st' tgt (v_public true env fuel st' tgt)).
      { intros st' tgt A B C. apply IH; auto. lia. }
      apply (Spec_bind (v_elem_spec _ _ Hrec e _ (Inv_cons st e HI He EA) (le_n _)) (ip_fail_open st e He)).
      intros [st2 z] [HI2 [HE2 Hc]]. simpl in HI2, HE2, Hc.
      destruct (Inv_update st st2 e z He EA HI2 HE2 Hc) as [A [B C]].
      unfold ctx_create. cbn [fst snd].
      rewrite (proj1 (Ext_open _ _ (ename e) HE2)) by (rewrite assoc_cons, str_eqb_refl; reflexivity).
      split; eauto.
  Qed.

  #[local] Arguments v_public : simpl never.

  (* what validate_types leaves for validate_messages *)
  Definition types_ok (st : vstate) : Prop :=
    forall e, In e env -> exists z, assoc (ename e) st = Some (Some z) /\ size_of env e = Some z.

  Lemma Inv_chk st e z :
    Inv st -> In e env -> assoc (ename e) st = Some (Some z) -> chk env (S (length env)) e = Some z.
  Proof.
    intros HI He Ha. apply (chk_mono_le _ (ncomp st)); [|apply HI; auto].
    pose proof (Inv_bound st HI). pose proof (ncomp_le st). lia.
  Qed.

  (* validate_types: between two public encodings nothing is in progress *)
  Lemma v_types_spec : forall l st,
    Inv st -> (forall n, assoc n st <> Some None) -> incl l env ->
    Dec (all_chk env l)
        (fun st' => Inv st' /\ Ext st st' /\ forall e, In e l -> exists z, assoc (ename e) st' = Some (Some z))
        (v_types true env (S (length env)) st l).
  Proof.
    induction l as [|e l IH]; intros st HI HN Hl; simpl.
    { apply Dec_ret. split; auto. split; [apply Ext_refl | intros ? []]. }
    assert (He : In e env) by (apply Hl; left; auto).
    apply (Spec_bind (v_public_spec (S (length env)) st e HI He ltac:(lia))).
    - intros HP. rewrite HP; [reflexivity|]. intros p _ Hap. destruct (HN _ Hap).
    - intros st1 [HI1 [HE1 [z Hz]]]. rewrite (Inv_chk _ _ _ HI1 He Hz).
      assert (HN1 : forall n, assoc n st1 <> Some None) by (intros n Hn; apply (HN n), (Ext_open _ _ _ HE1), Hn).
      apply (Dec_imp (IH st1 HI1 HN1 (fun x Hx => Hl x (or_intror Hx)))).
      intros st2 [HI2 [HE2 Hall]]. split; auto. split; [eapply Ext_trans; eauto|].
      intros x [<-|Hx]; auto. exists z. apply (Ext_done _ _ _ _ HE2 Hz).
  Qed.

  Lemma v_types_run : Dec (all_chk env env) types_ok (v_types true env (S (length env)) [] env).
  Proof.
    assert (HI0 : Inv []) by (split; [constructor | split; [intros ? [] | intros ? ? ? H; discriminate]]).
    assert (HN0 : forall n, assoc n [] <> Some None) by discriminate.
    apply (Dec_imp (v_types_spec env [] HI0 HN0 (incl_refl env))).
    intros st [HI [_ Hall]] e He. destruct (Hall e He) as [z Hz]. exists z. split; auto.
    apply (chk_esize _ _ _ _ _ (le_n _) (Inv_chk _ _ _ HI He Hz)).
  Qed.
End Types.

(* a loop that checks every item and the uniqueness of its key *)
Lemma uniq_loop_spec {A} (g : A -> voutcome unit) (k : A -> str) (p : A -> bool)
      (go : list str -> list A -> voutcome unit) :
  (forall seen, go seen [] = VOk tt) ->
  (forall seen x r, go seen (x :: r) =
                    (g x ;;; if mem_str (k x) seen then VErr DuplicateName else go (k x :: seen) r)) ->
  forall l, Forall (fun x => Dec (p x) any (g x)) l ->
  forall seen, Dec (forallb p l && freshb mem_str seen (map k l)) any (go seen l).
Proof.
  intros H0 HS l. induction 1 as [|x r Hx _ IH]; intros seen.
  - rewrite H0. apply Dec_ret. exact I.
  - rewrite HS. simpl. eapply Dec_eq; [exact (Dec_seq Hx (Dec_unless (IH _)))|].
    rewrite andb_assoc. apply andb_interchange.
Qed.

Definition e_parse (m : element_def) : bool := numbers_ok m && unique_ok m.

Definition choice_range (nc : str * Z) : bool := (0 <=? snd nc) && (snd nc <=? 255).

Lemma p_element_spec e : Dec (forallb e_parse (flatten e)) any (p_element e).
Proof.
  induction e as [t|en|st|n ty o|n o els IHe] using element_ind';
    [| | | |rewrite forallb_flatten_composite]; unfold e_parse at 1, numbers_ok, unique_ok; simpl;
    rewrite !andb_true_r.
  - apply (Dec_eq (Dec_seq Dec_check Dec_check)), andb_comm.
  - exact (Dec_seq Dec_check (p_unique_spec _)).
  - rewrite <- andb_assoc, <- freshb_nil_str. eapply Dec_seq; [apply Dec_check|].
    apply (uniq_loop_spec (fun nc => check (choice_range nc) BadNumber) fst choice_range);
      [reflexivity | intros seen [m i] r; reflexivity | apply Forall_forall; intros; apply Dec_check].
  - apply Dec_check.
  - rewrite <- andb_assoc, (andb_comm (nodup_str _)), <- freshb_nil_str. eapply Dec_seq; [apply Dec_check|].
    apply (uniq_loop_spec p_element ename (fun m => forallb e_parse (flatten m)));
      [reflexivity | reflexivity | exact IHe].
Qed.

Definition lname (e : element_def) : str := to_lower (ename e).

Lemma p_types_spec env : forall seen,
  Dec (forallb (fun e => negb (is_ref e)) env && forallb e_parse (all_elements env) &&
       freshb mem_str seen (map lname env)) any (p_types seen env).
Proof.
  intros seen. unfold all_elements. rewrite forallb_flat_map, <- forallb_andb.
  apply (uniq_loop_spec (fun e => check (negb (is_ref e)) Malformed ;;; p_element e) lname).
  - reflexivity.
  - intros s e r. simpl. destruct (negb (is_ref e)); reflexivity.
  - apply Forall_forall. intros e _. eapply Dec_seq; [apply Dec_check | apply p_element_spec].
Qed.

Section GroupInd.
  Variable P : group_def -> Prop.
  Hypothesis HG : forall n dim bl fs gs ds, Forall P gs -> P (GroupDef n dim bl fs gs ds).
  Fixpoint group_ind' (g : group_def) : P g :=
    match g with
    | GroupDef n dim bl fs gs ds =>
      HG n dim bl fs gs ds ((fix go (gs : list group_def) : Forall P gs :=
                               match gs with
                               | [] => Forall_nil P
                               | g' :: r => Forall_cons g' (group_ind' g') (go r)
                               end) gs)
    end.
End GroupInd.

Definition fo_ok (f : field_def) : bool := opt_u64_ok (f_offset f).

(* the pass predicates list their conjuncts in the order in which the
   validator checks them *)
Fixpoint g_parse (g : group_def) : bool :=
  match g with
  | GroupDef n dim bl fs gs ds =>
    opt_u64_ok bl && (forallb fo_ok fs && (forallb g_parse gs &&
    nodup_str (level_names fs (map gname gs) ds)))
  end.

Lemma p_fields_spec fs : Dec (forallb fo_ok fs) any (p_fields fs).
Proof.
  apply (vall_all (fun f => p_onum (f_offset f)) fo_ok). intros f. apply Dec_check.
Qed.

Lemma p_group_spec g : Dec (g_parse g) any (p_group g).
Proof.
  induction g as [n dim bl fs gs ds IH] using group_ind'.
  exact (Dec_seq Dec_check (Dec_seq (p_fields_spec fs)
          (Dec_seq (vall_spec p_group g_parse gs IH) (p_unique_spec _)))).
Qed.

Definition m_parse (m : message_def) : bool :=
  (0 <=? m_id m) && (m_id m <=? 4294967295) && (opt_u64_ok (m_bl m) && (forallb fo_ok (m_fields m) &&
  (forallb g_parse (m_groups m) &&
   nodup_str (level_names (m_fields m) (map gname (m_groups m)) (m_data m))))).

Lemma p_message_spec m : Dec (m_parse m) any (p_message m).
Proof.
  exact (Dec_seq Dec_check (Dec_seq Dec_check (Dec_seq (p_fields_spec _)
          (Dec_seq (vall_all p_group g_parse (m_groups m) p_group_spec) (p_unique_spec _))))).
Qed.

Lemma p_messages_spec ms : forall names ids,
  Dec (forallb m_parse ms && freshb mem_str names (map m_name ms) && freshb mem_z ids (map m_id ms)) any
      (p_messages names ids ms).
Proof.
  induction ms as [|m ms IH]; intros names ids; simpl; [apply Dec_ret; exact I|].
  eapply Dec_eq.
  - exact (Dec_seq (p_message_spec m) (Dec_unless (Dec_unless (IH _ _)))).
  - ring.
Qed.

Definition s_parse (s : schema_def) : bool :=
  forallb (fun e => negb (is_ref e)) (sc_types s) && forallb e_parse (all_elements (sc_types s)) &&
  nodup_str (map lname (sc_types s)) &&
  (forallb m_parse (sc_messages s) && nodup_str (map m_name (sc_messages s)) &&
   nodup_z (map m_id (sc_messages s))).

Lemma parse_checks_spec s : Dec (s_parse s) any (parse_checks s).
Proof.
  eapply Dec_eq; [exact (Dec_seq (p_types_spec (sc_types s) []) (p_messages_spec (sc_messages s) [] []))|].
  rewrite !freshb_nil_str, (freshb_nil mem_z mem_z_In). reflexivity.
Qed.

Definition notkw (n : str) : bool := negb (is_keyword n).
Definition e_cpp (m : element_def) : bool := forallb notkw (own_names m).

Lemma c_name_spec n : Dec (notkw n) any (c_name n).
Proof. apply Dec_check. Qed.

Lemma c_names_spec l : Dec (forallb notkw l) any (c_names l).
Proof. exact (vall_all c_name notkw l c_name_spec). Qed.

Lemma c_element_spec e : Dec (forallb e_cpp (flatten e)) any (c_element e).
Proof.
  induction e as [t|en|st|n ty o|n o els IHe] using element_ind';
    [| | | |rewrite forallb_flatten_composite]; unfold e_cpp at 1; cbn [flatten forallb own_names ename];
    rewrite !andb_true_r.
  - apply c_name_spec.
  - exact (Dec_seq (c_name_spec _) (c_names_spec _)).
  - exact (Dec_seq (c_name_spec _) (c_names_spec _)).
  - apply c_name_spec.
  - exact (Dec_seq (c_name_spec _) (vall_spec c_element _ els IHe)).
Qed.

Lemma c_elements_spec l : Dec (forallb e_cpp (all_elements l)) any (c_elements l).
Proof.
  unfold all_elements. rewrite forallb_flat_map. exact (vall_all c_element _ l c_element_spec).
Qed.

Fixpoint g_cpp (g : group_def) : bool :=
  match g with
  | GroupDef n _ _ fs gs ds =>
    notkw n && (forallb notkw (map f_name fs) && (forallb g_cpp gs && forallb notkw (map d_name ds)))
  end.

Lemma c_group_spec g : Dec (g_cpp g) any (c_group g).
Proof.
  induction g as [n dim bl fs gs ds IH] using group_ind'.
  exact (Dec_seq (c_name_spec _) (Dec_seq (c_names_spec _)
          (Dec_seq (vall_spec c_group g_cpp gs IH) (c_names_spec _)))).
Qed.

Lemma c_groups_spec gs : Dec (forallb g_cpp gs) any (c_groups gs).
Proof. exact (vall_all c_group g_cpp gs c_group_spec). Qed.

Definition m_cpp (m : message_def) : bool :=
  notkw (m_name m) && (forallb notkw (map f_name (m_fields m)) && (forallb g_cpp (m_groups m) &&
  forallb notkw (map d_name (m_data m)))).

Lemma c_messages_spec ms : Dec (forallb m_cpp ms) any (c_messages ms).
Proof.
  induction ms as [|m r IH]; simpl; [apply Dec_ret; exact I|].
  eapply Dec_eq.
  - exact (Dec_seq (c_name_spec _) (Dec_seq (c_names_spec _)
            (Dec_seq (c_groups_spec _) (Dec_seq (c_names_spec _) IH)))).
  - unfold m_cpp. rewrite !andb_assoc. reflexivity.
Qed.

Definition s_cpp (s : schema_def) : bool :=
  schema_name_ok (sc_name s) && (forallb e_cpp (all_elements (sc_types s)) && forallb m_cpp (sc_messages s)).

Lemma cpp_validate_spec s : Dec (s_cpp s) any (cpp_validate s).
Proof.
  exact (Dec_seq Dec_check (Dec_seq (c_elements_spec _) (c_messages_spec _))).
Qed.

Lemma v_header_element_spec env els name :
  Ref (header_member_type env els name) (v_header_element env els name).
Proof.
  unfold v_header_element, header_member_type.
  destruct (find_element els name) as [[t|e|s|n ty o|n o l]|]; try reflexivity.
  destruct (get_encoding env ty) as [[t|e|s|n' ty' o'|n' o' l]|]; reflexivity.
Qed.

Lemma v_level_header_element_spec env els name :
  Dec (scalar_member_ok env els name) any (v_level_header_element env els name).
Proof.
  exact (Ref_bind (b := fun t => (t_length t =? 1) && negb (presence_eqb (t_presence t) PConstant))
           (v_header_element_spec env els name) (fun t _ => Dec_seq Dec_check Dec_check)).
Qed.

Lemma v_level_header_spec env ty req :
  Dec (level_header_ok env ty req) any (v_level_header env ty req).
Proof.
  unfold v_level_header, level_header_ok.
  destruct (get_encoding env ty) as [[t|e|s|n ty' o|n o els]|]; try reflexivity.
  exact (vall_all _ _ req (v_level_header_element_spec env els)).
Qed.

Lemma v_data_header_spec env ty : Dec (data_header_ok env ty) any (v_data_header env ty).
Proof.
  unfold v_data_header, data_header_ok.
  destruct (get_encoding env ty) as [[t|e|s|n ty' o|n o els]|]; try reflexivity.
  exact (Dec_seq (v_level_header_element_spec env els k_length)
           (Ref_bind (b := fun t => t_length t =? 0) (v_header_element_spec env els k_varData)
              (fun t _ => Dec_check))).
Qed.

Lemma get_encoding_lower env d d' : to_lower d = to_lower d' -> get_encoding env d = get_encoding env d'.
Proof. intros H. unfold get_encoding. rewrite H. reflexivity. Qed.

Lemma bind_assoc {A B C} (x : voutcome A) (f : A -> voutcome B) (g : B -> voutcome C) :
  (a <- x ;; b <- f a ;; g b) = (b <- (a <- x ;; f a) ;; g b).
Proof. destruct x; reflexivity. Qed.

(* a check that is skipped when its key is already in a memo set *)
Lemma memo_spec {S} (J : S -> Prop) k known (x : voutcome unit) b s s2 :
  Dec b any x -> (In k known -> b = true) -> J s -> (b = true -> J s2) ->
  Dec b J (if mem_str k known then VOk s else x ;;; VOk s2).
Proof.
  intros Hx Hk Hs Hs2. destruct (mem_str k known) eqn:E.
  - apply mem_str_In in E. rewrite (Hk E). apply Dec_ret, Hs.
  - eapply Dec_eq; [|apply andb_true_r].
    apply (Dec_bind Hx). intros _ Hb _. apply Dec_ret, Hs2, Hb.
Qed.

Section Levels.
  Variable env : list element_def.
  Variable st : vstate.
  Hypothesis no_refs : forallb (fun e => negb (is_ref e)) env = true.
  Hypothesis st_ok : types_ok env st.

  Definition Memo (mm : vmemo) : Prop :=
    (forall d, In (to_lower d) (fst mm) -> level_header_ok env d group_header_members = true) /\
    (forall d, In (to_lower d) (snd mm) -> data_header_ok env d = true).

  Lemma v_group_header_spec mm dim : Memo mm ->
    Dec (level_header_ok env dim group_header_members) Memo (v_group_header env mm dim).
  Proof.
    intros [MG MD]. apply memo_spec; [apply v_level_header_spec | apply MG | split; auto|].
    intros Hb. split; auto. simpl. intros d [Hd|Hd]; auto.
    unfold level_header_ok. rewrite (get_encoding_lower env d dim) by auto. exact Hb.
  Qed.

  Definition data_ok (d : data_def) : bool := is_symbolic (d_name d) && data_header_ok env (d_type d).

  Lemma v_datas_spec ds : forall mm, Memo mm -> Dec (forallb data_ok ds) Memo (v_datas env mm ds).
  Proof.
    induction ds as [|d ds IH]; intros mm [MG MD]; simpl; [apply Dec_ret; split; auto|].
    unfold data_ok at 1. rewrite <- andb_assoc. eapply Dec_seq; [apply Dec_check|].
    eapply Dec_bind; [|intros mm' _; apply IH].
    apply memo_spec; [apply v_data_header_spec | apply MD | split; auto|].
    intros Hb. split; auto. simpl. intros x [Hx|Hx]; auto.
    unfold data_header_ok. rewrite (get_encoding_lower env x (d_type d)) by auto. exact Hb.
  Qed.

  (* size and actual presence of a field, as validate_members computes them *)
  Definition v_field_sp (f : field_def) : voutcome (Z * presence_kind) :=
    match prim_of_name (f_type f) with
    | Some p => VOk (psize p, f_presence f)
    | None =>
      match get_encoding env (f_type f) with
      | None => VErr UnknownType
      | Some enc => z <- ctx_get st enc ;; VOk (z, v_actual_presence f enc)
      end
    end.

  Lemma v_field_sp_spec f :
    Spec (fun sp => field_size env f = Some (fst sp) /\
                    presence_eqb (snd sp) PConstant = field_is_constant env f)
         (field_size env f = None) (v_field_sp f).
  Proof.
    unfold v_field_sp, field_size, field_is_constant.
    destruct (prim_of_name (f_type f)); simpl; auto.
    destruct (get_encoding env (f_type f)) as [enc|] eqn:EG; simpl; auto.
    destruct (st_ok enc (get_encoding_In _ _ _ EG)) as [z [Hz Hs]]. unfold ctx_get. rewrite Hz. simpl.
    split; auto. destruct enc as [t|e|s|n ty o|n o l]; simpl; auto.
    destruct (f_presence f); reflexivity.
  Qed.

  Lemma v_constant_field_spec f :
    field_is_constant env f = true -> field_size env f <> None ->
    Dec (constant_field_ok env f) any (v_constant_field env f).
  Proof.
    unfold field_is_constant, field_size, constant_field_ok, v_constant_field.
    destruct (prim_of_name (f_type f)) as [p|].
    - intros _ _. destruct (f_vref f) as [r|]; [|reflexivity].
      apply (Ref_bind (b := fun '(e, v) => enum_value_fits e v p) (find_value_ref_spec env r)).
      intros [e v] _. apply Dec_check.
    - destruct (get_encoding env (f_type f)) as [[t|e|s|n ty o|n o l]|] eqn:EG; intros HC HS;
        try discriminate; try congruence; try reflexivity.
      + apply Dec_ret. exact I.
      + destruct (f_vref f) as [r|]; [|reflexivity].
        apply (Ref_bind (b := fun '(e', _) => str_eqb (to_lower (f_type f)) (to_lower (e_name e')))
                 (find_value_ref_spec env r)).
        intros [e' v] _. apply Dec_check.
      + apply get_encoding_In in EG. rewrite forallb_forall in no_refs. specialize (no_refs _ EG). discriminate.
  Qed.

  Definition field_ok (f : field_def) : bool := is_symbolic (f_name f) && field_sem env f.

  Lemma v_fields_unfold f r cur :
    v_fields true env st (f :: r) cur =
    (v_name (f_name f) ;;;
     sp <- v_field_sp f ;;
     cur' <- (if presence_eqb (snd sp) PConstant
              then v_constant_field env f ;;; VOk cur
              else v_place true (f_offset f) cur (fst sp)) ;;
     v_fields true env st r cur').
  Proof. reflexivity. Qed.

  (* the fields loop runs over the items of [field_items] as the members loop
     runs over those of [items_of] *)
  Lemma v_fields_spec fs : forall acc, end_of acc <= max_u64 ->
    Dec (forallb field_ok fs && offs_ok acc (field_items env fs))
        (fun c => exists items, field_items env fs = Some items /\ c = end_of (rev items ++ acc))
        (v_fields true env st fs (end_of acc)).
  Proof.
    induction fs as [|f fs IH]; intros acc Hacc.
    { apply Dec_ret. exists []. auto. }
    rewrite v_fields_unfold. cbn [forallb field_items]. unfold v_name, field_ok at 1, field_sem at 1, field_item.
    destruct (is_symbolic (f_name f)); [|reflexivity]. cbn [andb check bind].
    apply (Spec_bind (v_field_sp_spec f)).
    { intros ->. reflexivity. }
    intros [sz pres] [ES HP]. cbn [fst snd] in *. rewrite HP, ES. cbn [is_some andb].
    set (c := field_is_constant env f). set (it := (f_offset f, if c then None else Some sz)).
    assert (Hstep : Dec ((if c then constant_field_ok env f else true) && item_check acc it)
                        (fun cur => cur = end_of (it :: acc) /\ cur <= max_u64)
                        (if c then v_constant_field env f ;;; VOk (end_of acc)
                         else v_place true (f_offset f) (end_of acc) sz)).
    { pose proof (place_spec acc (f_offset f) c sz Hacc) as HP'. subst c.
      destruct (field_is_constant env f) eqn:FC; [|exact HP'].
      eapply Dec_seq; [apply (v_constant_field_spec f FC); congruence | exact HP']. }
    eapply Dec_eq.
    - eapply Dec_bind; [exact Hstep|]. intros cur _ [-> Hc].
      apply (Dec_imp (IH (it :: acc) Hc)).
      intros z [items [Hi ->]]. exists (it :: items). rewrite Hi. split; [reflexivity|].
      simpl. rewrite <- app_assoc. reflexivity.
    - rewrite offs_ok_cons. apply andb_interchange.
  Qed.

  Lemma v_block_spec fs bl :
    Dec (forallb field_ok fs && block_ok env fs bl) any
        (minimal <- v_fields true env st fs 0 ;; v_block_length bl minimal).
  Proof.
    apply (Spec_bind (v_fields_spec fs [] end_of_nil_u64)); unfold block_ok, offsets_ok.
    - destruct (forallb field_ok fs); [|reflexivity]. simpl.
      destruct (field_items env fs); simpl; [intros ->|]; reflexivity.
    - intros c [HB [items [Hi ->]]]. rewrite app_nil_r. apply andb_true_iff in HB.
      destruct HB as [H1 H2]. rewrite H1, Hi in *. simpl in H2. rewrite H2. simpl.
      destruct bl as [b|]; simpl; [|apply Dec_ret; exact I].
      apply (Dec_eq Dec_check). symmetry. apply Z.leb_antisym.
  Qed.

  Fixpoint g_sbe (g : group_def) : bool :=
    match g with
    | GroupDef n dim bl fs gs ds =>
      is_symbolic n && (level_header_ok env dim group_header_members &&
      ((forallb field_ok fs && block_ok env fs bl) && (forallb g_sbe gs && forallb data_ok ds)))
    end.

  Lemma v_group_unfold mm n dim bl fs gs ds :
    v_group true env st mm (GroupDef n dim bl fs gs ds) =
    (v_name n ;;;
     mm1 <- v_group_header env mm dim ;;
     minimal <- v_fields true env st fs 0 ;;
     v_block_length bl minimal ;;;
     mm2 <- vfold (v_group true env st) mm1 gs ;;
     v_datas env mm2 ds).
  Proof. reflexivity. Qed.

  Lemma v_group_spec g : forall mm, Memo mm -> Dec (g_sbe g) Memo (v_group true env st mm g).
  Proof.
    induction g as [n dim bl fs gs ds IH] using group_ind'. intros mm HM.
    rewrite v_group_unfold. simpl g_sbe.
    eapply Dec_seq; [apply Dec_check|].
    apply (Dec_bind (v_group_header_spec mm dim HM)). intros mm1 _ HM1.
    rewrite bind_assoc. eapply Dec_seq; [apply v_block_spec|].
    apply (Dec_bind (vfold_spec _ g_sbe Memo gs IH mm1 HM1)). intros mm2 _. apply v_datas_spec.
  Qed.

  Lemma v_groups_spec gs : forall mm, Memo mm -> Dec (forallb g_sbe gs) Memo (v_groups true env st mm gs).
  Proof.
    induction gs as [|g r IH]; intros mm HM; simpl; [apply Dec_ret, HM|].
    apply (Dec_bind (v_group_spec g mm HM)). intros mm' _. apply IH.
  Qed.

  Definition m_sbe (m : message_def) : bool :=
    is_symbolic (m_name m) &&
    ((forallb field_ok (m_fields m) && block_ok env (m_fields m) (m_bl m)) &&
     (forallb g_sbe (m_groups m) && forallb data_ok (m_data m))).

  Lemma v_message_spec m : forall mm, Memo mm -> Dec (m_sbe m) Memo (v_message true env st mm m).
  Proof.
    intros mm HM. unfold v_message, m_sbe.
    eapply Dec_seq; [apply Dec_check|]. rewrite bind_assoc. eapply Dec_seq; [apply v_block_spec|].
    apply (Dec_bind (v_groups_spec _ mm HM)). intros mm2 _. apply v_datas_spec.
  Qed.

  Lemma v_messages_spec ms : forall mm, Memo mm -> Dec (forallb m_sbe ms) Memo (v_messages true env st mm ms).
  Proof.
    induction ms as [|m r IH]; intros mm HM; simpl; [apply Dec_ret, HM|].
    apply (Dec_bind (v_message_spec m mm HM)). intros mm' _. apply IH.
  Qed.

  Lemma Memo_nil : Memo ([], []).
  Proof. split; intros d []. Qed.
End Levels.

Lemma forallb_name_ok l : forallb name_ok l = forallb is_symbolic l && forallb notkw l.
Proof. exact (forallb_andb is_symbolic notkw l). Qed.

Lemma element_rule_split env m : element_rule env m = e_parse m && e_sbe env m && e_cpp m.
Proof. unfold element_rule, e_parse, e_sbe, e_cpp. rewrite forallb_name_ok. ring. Qed.

Lemma level_rule_split env fs gnames ds bl :
  level_rule env fs gnames ds bl =
  (opt_u64_ok bl && forallb fo_ok fs && nodup_str (level_names fs gnames ds)) &&
  (forallb (field_ok env) fs && block_ok env fs bl && forallb (data_ok env) ds) &&
  (forallb notkw (map f_name fs) && forallb notkw (map d_name ds)).
Proof.
  unfold level_rule, field_ok, data_ok, name_ok, fo_ok, notkw.
  rewrite !forallb_map, !forallb_andb. ring.
Qed.

Lemma group_rule_eq env n dim bl fs gs ds :
  group_rule env (GroupDef n dim bl fs gs ds) =
  name_ok n && level_header_ok env dim group_header_members &&
  level_rule env fs (map gname gs) ds bl && forallb (group_rule env) gs.
Proof. reflexivity. Qed.

Lemma group_rule_split env g : group_rule env g = g_parse g && g_sbe env g && g_cpp g.
Proof.
  induction g as [n dim bl fs gs ds IH] using group_ind'. rewrite Forall_forall in IH.
  rewrite group_rule_eq, level_rule_split, (forallb_ext _ _ _ IH), !forallb_andb.
  simpl. unfold name_ok. fold (notkw n). ring.
Qed.

Lemma message_rule_split env m : message_rule env m = m_parse m && m_sbe env m && m_cpp m.
Proof.
  unfold message_rule, m_parse, m_sbe, m_cpp.
  rewrite level_rule_split, (forallb_ext _ _ _ (fun g _ => group_rule_split env g)), !forallb_andb.
  unfold name_ok. fold (notkw (m_name m)). ring.
Qed.

Definition s_sbe (s : schema_def) : bool :=
  let env := sc_types s in
  forallb (e_sbe env) (all_elements env) && forallb (fun e => is_some (size_of env e)) env &&
  (level_header_ok env (sc_header s) message_header_members && forallb (m_sbe env) (sc_messages s)).

Lemma rules_ok_split s : rules_ok s = s_parse s && s_sbe s && s_cpp s.
Proof.
  unfold rules_ok, s_parse, s_sbe, s_cpp, lname, is_some. cbv zeta.
  rewrite (forallb_ext _ _ _ (fun m _ => element_rule_split (sc_types s) m)),
    (forallb_ext _ _ _ (fun m _ => message_rule_split (sc_types s) m)), !forallb_andb.
  ring.
Qed.

Lemma rules_ok_parts s :
  rules_ok s = true ->
  (forall m, In m (all_elements (sc_types s)) -> element_rule (sc_types s) m = true) /\
  level_header_ok (sc_types s) (sc_header s) message_header_members = true /\
  (forall m, In m (sc_messages s) -> message_rule (sc_types s) m = true).
Proof.
  unfold rules_ok. cbv zeta.
  intros [[[[[[[_ _]%andb_prop HE]%andb_prop _]%andb_prop HH]%andb_prop _]%andb_prop _]%andb_prop HM]%andb_prop.
  rewrite forallb_forall in HE, HM. auto.
Qed.

Lemma element_rule_parts env m : element_rule env m = true -> numbers_ok m = true /\ sem_ok env m = true.
Proof. unfold element_rule. intros [[[_ ?]%andb_prop _]%andb_prop ?]%andb_prop. auto. Qed.

Lemma level_rule_parts env fs gnames ds bl :
  level_rule env fs gnames ds bl = true ->
  forallb fo_ok fs = true /\ opt_u64_ok bl = true /\ forallb (field_sem env) fs = true /\
  block_ok env fs bl = true /\ forallb (fun d => data_header_ok env (d_type d)) ds = true.
Proof.
  unfold level_rule. intros [[[[[[_ ?]%andb_prop ?]%andb_prop _]%andb_prop ?]%andb_prop ?]%andb_prop ?]%andb_prop.
  auto.
Qed.

Theorem validate_spec s : Dec (rules_ok s) any (validate s).
Proof.
  unfold validate, validate_gen. cbv zeta. rewrite rules_ok_split. unfold s_sbe. cbv zeta.
  set (env := sc_types s). rewrite <- (types_chk env).
  eapply Dec_eq.
  - eapply Dec_bind; [apply parse_checks_spec|]. intros _ HP _.
    unfold s_parse in HP. apply andb_prop in HP. destruct HP as [[[NR _]%andb_prop ND]%andb_prop _].
    (* names that differ ignoring case differ *)
    apply nodup_str_NoDup in ND. unfold lname in ND. rewrite <- map_map in ND. apply NoDup_map_inv in ND.
    eapply Dec_bind; [apply (v_types_run env ND)|]. intros st _ Hst.
    eapply Dec_seq; [apply v_level_header_spec|].
    eapply Dec_seq; [apply (v_messages_spec env st NR Hst _ _ (Memo_nil env))|].
    eapply Dec_seq; [apply cpp_validate_spec | apply Dec_ret; exact I].
  - rewrite andb_true_r, !andb_assoc. reflexivity.
Qed.

Theorem validate_iff_rules s : (exists st, validate s = VOk st) <-> rules_ok s = true.
Proof.
  pose proof (validate_spec s) as H. destruct (validate s) as [st| | |]; try contradiction.
  - destruct H. split; eauto.
  - split; [intros [st X]; discriminate | intros X; congruence].
Qed.

Theorem accepts_iff_rules s : accepts s = rules_ok s.
Proof.
  unfold accepts. pose proof (validate_spec s) as H.
  destruct (validate s); try contradiction; [destruct H|]; auto.
Qed.

(* the validator never crashes and never runs out of fuel *)
Theorem validate_total s : (exists st, validate s = VOk st) \/ (exists c, validate s = VErr c).
Proof.
  pose proof (validate_spec s) as H. destruct (validate s) as [st|c| |]; try contradiction; eauto.
Qed.

Theorem rejected_has_class s : rules_ok s = false -> exists c, validate s = VErr c.
Proof.
  intros R. pose proof (validate_spec s) as H. destruct (validate s) as [st|c| |]; try contradiction; eauto.
  destruct H. congruence.
Qed.

Fixpoint in_order (cur : Z) (lay : list (Z * Z)) (total : Z) : Prop :=
  match lay with
  | [] => cur <= total
  | (off, sz) :: r => cur <= off /\ 0 <= sz /\ in_order (off + sz) r total
  end.

Definition item_nonneg (it : option Z * option Z) : Prop :=
  (match fst it with Some o => 0 <= o | None => True end) /\
  (match snd it with Some s => 0 <= s | None => True end).

Lemma layout_in_order items : forall acc,
  offsets_ok_from acc items = true -> Forall item_nonneg items ->
  in_order (end_of acc) (assign (end_of acc) items) (end_of (rev items ++ acc)).
Proof.
  induction items as [|[o [s|]] items IH]; intros acc Hok Hnn; [simpl; lia| |];
    rewrite offsets_ok_from_cons in Hok; apply andb_true_iff in Hok; destruct Hok as [Hc Hok];
    inversion Hnn as [|? ? [Ho Hs] Hnn']; subst;
    specialize (IH _ Hok Hnn'); simpl rev; rewrite <- app_assoc.
  - rewrite end_of_cons_some in IH. apply andb_true_iff in Hc. destruct Hc as [Hc _].
    destruct o as [o|]; simpl in *; [apply Z.leb_le in Hc|]; repeat split; auto; lia.
  - rewrite end_of_cons_none in IH. destruct o; exact IH.
Qed.

Lemma offsets_ok_end items : forall acc,
  offsets_ok_from acc items = true -> end_of acc <= max_u64 -> end_of (rev items ++ acc) <= max_u64.
Proof.
  induction items as [|it items IH]; intros acc H Ha; simpl; auto.
  rewrite offsets_ok_from_cons in H. apply andb_true_iff in H. destruct H as [Hc H].
  rewrite <- app_assoc. apply IH; auto. apply andb_true_iff in Hc. apply Z.leb_le, Hc.
Qed.

Lemma in_order_disjoint lay : forall cur total, in_order cur lay total ->
  cur <= total /\
  (forall a, In a lay -> cur <= fst a /\ 0 <= snd a /\ fst a + snd a <= total) /\
  (forall i j a b, (i < j)%nat -> nth_error lay i = Some a -> nth_error lay j = Some b ->
                   fst a + snd a <= fst b).
Proof.
  induction lay as [|[off sz] r IH]; intros cur total H; simpl in *.
  - split; [lia|]. split; [intros a [] | intros [|i] j a b _; discriminate].
  - destruct H as [H1 [H2 H3]]. destruct (IH _ _ H3) as [A [B C]]. split; [lia|]. split.
    + intros a [<-|Ha]; simpl; [lia|]. destruct (B a Ha) as [B1 [B2 B3]]. lia.
    + intros i [|j] a b Hij Ha Hb; [lia|]. destruct i as [|i]; simpl in Ha, Hb.
      * inversion Ha; subst. apply (B b), (nth_error_In _ _ Hb).
      * apply (C i j a b); auto. lia.
Qed.

(* a layout: members in declaration order, pairwise disjoint, inside [0,total] *)
Definition disjoint_layout (lay : list (Z * Z)) (total : Z) : Prop :=
  (forall i j a b, (i < j)%nat -> nth_error lay i = Some a -> nth_error lay j = Some b ->
                   fst a + snd a <= fst b) /\
  (forall a, In a lay -> 0 <= fst a /\ 0 <= snd a /\ fst a + snd a <= total).

Lemma offsets_ok_layout items :
  offsets_ok items = true -> Forall item_nonneg items ->
  disjoint_layout (assign 0 items) (end_of (rev items)) /\ end_of (rev items) <= max_u64.
Proof.
  intros Hok Hnn. pose proof (layout_in_order items [] Hok Hnn) as A.
  pose proof (offsets_ok_end items [] Hok end_of_nil_u64) as B.
  rewrite app_nil_r in *. change (end_of []) with 0 in A.
  destruct (in_order_disjoint _ _ _ A) as [_ [E P]]. split; [split|]; auto.
Qed.

Definition numok (e : element_def) : Prop := forallb numbers_ok (flatten e) = true.

Lemma numok_self e : numok e -> numbers_ok e = true.
Proof. intros H. apply (proj1 (forallb_forall _ _) H), flatten_self. Qed.

Lemma psize_pos p : 0 < psize p.
Proof. destruct p; unfold psize; simpl; lia. Qed.

Lemma psize_some_nonneg o z : option_map psize o = Some z -> 0 <= z.
Proof. destruct o as [p|]; [|discriminate]. intros H. inversion H. pose proof (psize_pos p). lia. Qed.

Lemma u64_ok_iff z : u64_ok z = true <-> 0 <= z <= max_u64.
Proof. unfold u64_ok. rewrite andb_true_iff, !Z.leb_le. reflexivity. Qed.

Lemma opt_u64_nonneg o : opt_u64_ok o = true -> match o with Some x => 0 <= x | None => True end.
Proof. destruct o as [x|]; simpl; auto. intros H. apply u64_ok_iff in H. tauto. Qed.

Lemma numbers_ok_offset m : numbers_ok m = true -> match eoffset m with Some x => 0 <= x | None => True end.
Proof. unfold numbers_ok. intros H. apply andb_true_iff in H. destruct H as [H _]. apply opt_u64_nonneg; auto. Qed.

Lemma items_by_nonneg env (sz : element_def -> option Z) els :
  Forall (fun m => numbers_ok m = true /\ forall s, sz m = Some s -> 0 <= s) els ->
  forall items, items_by env sz els = Some items -> Forall item_nonneg items.
Proof.
  induction 1 as [|m r [Hn Hm] _ IH]; simpl; intros items.
  - intros H. inversion H. constructor.
  - destruct (sz m) as [s|]; [|discriminate]. destruct (items_by env sz r) as [l|]; [|discriminate].
    intros H. inversion H; subst. constructor; auto.
    split; simpl; [apply numbers_ok_offset, Hn | destruct (takes_no_space env m); auto].
Qed.

Lemma end_of_nonneg items : Forall item_nonneg items ->
  forall acc, 0 <= end_of acc -> 0 <= end_of (rev items ++ acc).
Proof.
  induction 1 as [|[o s] l [Ho Hs] _ IH]; intros acc Ha; simpl; auto.
  rewrite <- app_assoc. apply IH. cbn [app]. simpl in Ho, Hs.
  destruct s; [rewrite end_of_cons_some; destruct o; lia | rewrite end_of_cons_none; auto].
Qed.

Lemma esize_nonneg env :
  (forall e, In e env -> numok e) ->
  forall f e z, numok e -> esize env f e = Some z -> 0 <= z.
Proof.
  intros Henv. induction f as [|f IHf]; intros e; [discriminate|].
  induction e as [t|en|st|n ty o|n o els IHe] using element_ind'; intros z Hn; rewrite esize_S; cbn [size_step].
  - unfold type_size. destruct (prim_of_name (t_prim t)) as [p|]; [|discriminate]. intros H. inversion H.
    apply numok_self, andb_true_iff, proj2, u64_ok_iff in Hn. pose proof (psize_pos p).
    apply Z.mul_nonneg_nonneg; lia.
  - apply psize_some_nonneg.
  - apply psize_some_nonneg.
  - destruct (get_encoding env ty) as [tgt|] eqn:EG; [|discriminate]. apply IHf, Henv.
    eapply get_encoding_In; eauto.
  - rewrite members_end_by. destruct (items_by env (esize env (S f)) els) as [items|] eqn:EI; [|discriminate].
    intros H. inversion H. apply end_of_nonneg; [|cbv; discriminate].
    apply (items_by_nonneg _ _ _) with (2 := EI).
    unfold numok in Hn. rewrite forallb_flatten_composite in Hn. apply andb_true_iff, proj2 in Hn.
    rewrite forallb_forall in Hn. rewrite Forall_forall in *. intros m Hin.
    split; [apply numok_self, Hn, Hin | intros s; apply IHe; auto; apply Hn, Hin].
Qed.

Lemma composite_size env n o els :
  size_of env (EComposite n o els) =
  match items_of env els with Some items => Some (end_of (rev items)) | None => None end.
Proof.
  unfold size_of at 1. rewrite esize_S. cbn [size_step]. rewrite members_end_by, items_of_by.
  change (esize env (S (length env))) with (size_of env).
  destruct (items_by env (size_of env) els); simpl; [rewrite app_nil_r|]; reflexivity.
Qed.

Lemma items_nonneg env els items :
  (forall e, In e env -> numok e) -> Forall numok els ->
  items_of env els = Some items -> Forall item_nonneg items.
Proof.
  intros Henv Hm. rewrite items_of_by. apply items_by_nonneg.
  apply (Forall_impl _ (P := numok)); [|exact Hm].
  intros m Hn. split; [apply numok_self, Hn | intros s; apply (esize_nonneg env Henv); exact Hn].
Qed.

Fixpoint glevels (g : group_def) : list (list field_def * option Z) :=
  match g with GroupDef _ _ bl fs gs _ => (fs, bl) :: flat_map glevels gs end.

Definition schema_levels (s : schema_def) : list (list field_def * option Z) :=
  flat_map (fun m => (m_fields m, m_bl m) :: flat_map glevels (m_groups m)) (sc_messages s).

Definition block_total (items : list (option Z * option Z)) (bl : option Z) : Z :=
  match bl with Some b => b | None => end_of (rev items) end.

Definition level_layout_ok (env : list element_def) (fs : list field_def) (bl : option Z) : Prop :=
  exists items, field_items env fs = Some items /\
                disjoint_layout (assign 0 items) (block_total items bl) /\
                block_total items bl <= max_u64.

Lemma field_items_nonneg env fs items :
  (forall e, In e env -> numok e) -> forallb fo_ok fs = true ->
  field_items env fs = Some items -> Forall item_nonneg items.
Proof.
  intros Henv. revert items. induction fs as [|f fs IH]; intros items Hfo; simpl.
  - intros H; inversion H; constructor.
  - simpl in Hfo. apply andb_true_iff in Hfo. destruct Hfo as [Hf Hfo].
    unfold field_item. destruct (field_size env f) as [s|] eqn:Es; [|discriminate].
    destruct (field_items env fs) as [l|]; [|discriminate]. intros H; inversion H; subst. constructor; auto.
    split; simpl; [apply opt_u64_nonneg; exact Hf|].
    destruct (field_is_constant env f); auto.
    unfold field_size in Es. destruct (prim_of_name (f_type f)) as [p|].
    + apply (psize_some_nonneg (Some p)), Es.
    + destruct (get_encoding env (f_type f)) as [e|] eqn:EG; [|discriminate].
      apply (esize_nonneg env Henv _ _ _ (Henv _ (get_encoding_In _ _ _ EG)) Es).
Qed.

Lemma level_rule_layout env fs gnames ds bl :
  (forall e, In e env -> numok e) ->
  level_rule env fs gnames ds bl = true -> level_layout_ok env fs bl.
Proof.
  intros Henv H. destruct (level_rule_parts _ _ _ _ _ H) as [Hfo [Hbl [_ [Hb _]]]].
  unfold block_ok in Hb. destruct (field_items env fs) as [items|] eqn:Ei; [|discriminate].
  apply andb_true_iff in Hb. destruct Hb as [Hok Hbl'].
  destruct (offsets_ok_layout items Hok (field_items_nonneg env fs items Henv Hfo Ei)) as [[L1 L2] L3].
  exists items. split; auto. unfold block_total. destruct bl as [b|]; [|split; [split|]; auto].
  apply Z.leb_le in Hbl'. apply u64_ok_iff in Hbl. split; [split; auto | apply Hbl].
  intros a Ha. destruct (L2 a Ha) as [A [B C]]. lia.
Qed.

Lemma group_rule_layout env g :
  (forall e, In e env -> numok e) -> group_rule env g = true ->
  forall fs bl, In (fs, bl) (glevels g) -> level_layout_ok env fs bl.
Proof.
  intros Henv. induction g as [n dim bl0 fs0 gs ds IH] using group_ind'. intros H fs bl Hin.
  rewrite group_rule_eq in H. apply andb_prop in H. destruct H as [[_ HL]%andb_prop HG].
  simpl in Hin. destruct Hin as [Heq|Hin].
  - inversion Heq; subst. eapply level_rule_layout; eauto.
  - apply in_flat_map in Hin. destruct Hin as [g [Hg Hin]].
    rewrite Forall_forall in IH. rewrite forallb_forall in HG. eapply IH; eauto.
Qed.

Lemma composite_layout env n o els :
  (forall e, In e env -> numok e) -> numok (EComposite n o els) -> sem_ok env (EComposite n o els) = true ->
  exists items, items_of env els = Some items /\
                size_of env (EComposite n o els) = Some (end_of (rev items)) /\
                disjoint_layout (assign 0 items) (end_of (rev items)) /\
                end_of (rev items) <= max_u64.
Proof.
  intros Henv N X. simpl in X. destruct (items_of env els) as [items|] eqn:Ei; [|discriminate].
  unfold numok in N. rewrite forallb_flatten_composite in N. apply andb_true_iff, proj2 in N.
  rewrite forallb_forall in N. apply Forall_forall in N.
  destruct (offsets_ok_layout items X (items_nonneg env els items Henv N Ei)) as [L1 L2].
  exists items. split; auto. split; [rewrite composite_size, Ei; reflexivity | auto].
Qed.

Theorem accepted_no_overlap s :
  rules_ok s = true ->
  (forall n o els, In (EComposite n o els) (all_elements (sc_types s)) ->
     exists items, items_of (sc_types s) els = Some items /\
                   size_of (sc_types s) (EComposite n o els) = Some (end_of (rev items)) /\
                   disjoint_layout (assign 0 items) (end_of (rev items)) /\
                   end_of (rev items) <= max_u64) /\
  (forall fs bl, In (fs, bl) (schema_levels s) -> level_layout_ok (sc_types s) fs bl).
Proof.
  intros R. destruct (rules_ok_parts s R) as [HE [_ HM]]. set (env := sc_types s) in *.
  assert (Hnum : forall m, In m (all_elements env) -> numok m).
  { intros m Hm. apply forallb_forall. intros x Hx.
    apply (element_rule_parts env), HE, (all_elements_closed _ _ _ Hm Hx). }
  assert (Henv : forall e, In e env -> numok e) by (intros e He; apply Hnum, all_elements_self, He).
  split.
  - intros n o els Hin. apply composite_layout; auto. apply element_rule_parts, HE, Hin.
  - intros fs bl Hin. unfold schema_levels in Hin. apply in_flat_map in Hin. destruct Hin as [m [Hm Hin]].
    pose proof (HM m Hm) as X. unfold message_rule in X. apply andb_prop in X.
    destruct X as [[_ HL]%andb_prop HG]. destruct Hin as [Heq|Hin].
    + inversion Heq; subst. eapply level_rule_layout; eauto.
    + apply in_flat_map in Hin. destruct Hin as [g [Hg Hin]]. rewrite forallb_forall in HG.
      eapply group_rule_layout; eauto.
Qed.
