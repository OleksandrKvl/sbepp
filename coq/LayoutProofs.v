(* LayoutProofs.v — proofs of the layout statements of MsgSpec.v. *)
From Coq Require Import ZArith List Bool Lia.
From Sbepp Require Import CInt Bytes Msg Layout Wire MsgSpec.
Import ListNotations.
Local Open Scope Z_scope.

Lemma place_some explicit cur sz off cur' :
  place explicit cur sz = Some (off, cur') ->
  off = (match explicit with Some o => o | None => cur end) /\
  cur <= off /\ cur' = off + sz.
Proof.
  unfold place. destruct explicit as [o|]; [destruct (Z.ltb_spec o cur); [discriminate|]|];
    intros [= <- <-]; lia.
Qed.

Lemma place_none explicit cur sz :
  place explicit cur sz = None <-> exists o, explicit = Some o /\ o < cur.
Proof.
  unfold place. destruct explicit as [o|].
  - destruct (Z.ltb_spec o cur) as [Hlt|Hge]; split; intros H'; eauto; try discriminate.
    destruct H' as (o' & [= <-] & L). lia.
  - split; [discriminate|]. intros (o & [=] & _).
Qed.

(* What a successful run of [layout_fields] looks like: constants are skipped,
   every other field is placed at [off >= cur] and the rest is laid out from
   its end.  The theorems about accepted layouts are instances. *)
Lemma layout_fields_ind (P : list sfield -> Z -> list fld -> Z -> Prop) :
  (forall cur, P [] cur [] cur) ->
  (forall f rest cur fl e, sf_const f = true -> P rest cur fl e -> P (f :: rest) cur fl e) ->
  (forall f rest cur sz off fl e,
     sf_const f = false -> type_size (sf_type f) = Some sz ->
     off = (match sf_off f with Some o => o | None => cur end) -> cur <= off ->
     layout_fields rest (off + sz) = Some (fl, e) -> P rest (off + sz) fl e ->
     P (f :: rest) cur ({| f_off := off; f_size := sz |} :: fl) e) ->
  forall fs cur fl e, layout_fields fs cur = Some (fl, e) -> P fs cur fl e.
Proof.
  intros Hnil Hconst Hplace.
  induction fs as [|f rest IH]; intros cur fl e H; cbn [layout_fields] in H.
  - injection H as <- <-. apply Hnil.
  - destruct (type_size (sf_type f)) as [sz|] eqn:Ets; [|discriminate].
    destruct (sf_const f) eqn:Ec; [now apply Hconst, IH|].
    destruct (place (sf_off f) cur sz) as [[off cur']|] eqn:Ep; [|discriminate].
    apply place_some in Ep as (Eo & Hle & ->).
    destruct (layout_fields rest (off + sz)) as [[fl' e']|] eqn:El; [|discriminate].
    injection H as <- <-. now apply Hplace; auto.
Qed.

Theorem layout_sbe_offsets : stmt_layout_sbe_offsets.
Proof.
  unfold stmt_layout_sbe_offsets.
  apply (layout_fields_ind (fun fs cur fl e => sbe_offsets fs cur fl /\ e = fields_end cur fl));
    cbn [sbe_offsets fields_end].
  - auto.
  - intros f rest cur fl e ->. auto.
  - intros f rest cur sz off fl e -> Ets Eo Hle _ [IH1 IH2]. cbn [f_off f_size]. auto.
Qed.
Print Assumptions layout_sbe_offsets.

Lemma exists_some_match {A B C} (x : option (A * B)) (g : A -> B -> C) :
  (exists r, match x with None => None | Some (a, b) => Some (g a b) end = Some r)
  <-> exists r, x = Some r.
Proof. destruct x as [[a b]|]; split; intros [r H]; eauto; discriminate. Qed.

Theorem layout_accepts_iff : stmt_layout_accepts_iff.
Proof.
  unfold stmt_layout_accepts_iff.
  induction fs as [|f rest IH]; intros cur; cbn [layout_fields offsets_admissible].
  - split; eauto.
  - destruct (type_size (sf_type f)) as [sz|]; [|split; [intros [r [=]]|intros []]].
    destruct (sf_const f); [apply IH|].
    unfold place. destruct (sf_off f) as [o|]; [destruct (Z.ltb_spec o cur)|].
    + split; [intros [r [=]]|lia].
    + rewrite exists_some_match, IH. tauto.
    + rewrite exists_some_match. apply IH.
Qed.
Print Assumptions layout_accepts_iff.

(* the anonymous fixpoints of [type_size] / [stype_ok], named *)
Definition comp_size : list smember -> Z -> option Z :=
  fix go (ms : list smember) (cur : Z) : option Z :=
    match ms with
    | [] => Some cur
    | SMember o c t :: rest =>
      match type_size t with
      | None => None
      | Some sz =>
        if c then go rest cur
        else match place o cur sz with
             | None => None
             | Some (_, cur') => go rest cur'
             end
      end
    end.

Definition members_ok : list smember -> Prop :=
  fix go (ms : list smember) : Prop :=
    match ms with
    | [] => True
    | SMember o _ t :: r =>
      (match o with Some x => 0 <= x | None => True end) /\ stype_ok t /\ go r
    end.

Lemma type_size_composite ms : type_size (TComposite ms) = comp_size ms 0.
Proof. reflexivity. Qed.

Lemma stype_ok_composite ms : stype_ok (TComposite ms) = members_ok ms.
Proof. reflexivity. Qed.

Lemma comp_size_cons o c t rest cur :
  comp_size (SMember o c t :: rest) cur =
  match type_size t with
  | None => None
  | Some sz =>
    if c then comp_size rest cur
    else match place o cur sz with
         | None => None
         | Some (_, cur') => comp_size rest cur'
         end
  end.
Proof. reflexivity. Qed.

Lemma members_ok_cons o c t r :
  members_ok (SMember o c t :: r) =
  ((match o with Some x => 0 <= x | None => True end) /\ stype_ok t /\ members_ok r).
Proof. reflexivity. Qed.

Definition size_nonneg (t : stype) : Prop :=
  forall sz, stype_ok t -> type_size t = Some sz -> 0 <= sz.

(* members advance the running offset when every member size is >= 0 *)
Lemma comp_size_mono_if ms : Forall (fun m => size_nonneg (sm_type m)) ms ->
  forall cur sz, members_ok ms -> comp_size ms cur = Some sz -> cur <= sz.
Proof.
  induction 1 as [|[o c t] r Ht _ IH]; intros cur sz Hok H.
  - injection H as <-. lia.
  - rewrite comp_size_cons in H. rewrite members_ok_cons in Hok. destruct Hok as (_ & Hokt & Hokr).
    destruct (type_size t) as [tsz|] eqn:Ets; [|discriminate].
    pose proof (Ht tsz Hokt Ets). destruct c; [now apply IH|].
    destruct (place o cur tsz) as [[off cur']|] eqn:Ep; [|discriminate].
    apply place_some in Ep as (_ & Hle & ->). apply IH in H; [lia|exact Hokr].
Qed.

(* nested induction: the members of a composite are handled by the lemma
   above, whose hypothesis is the recursive call *)
Lemma type_size_nonneg : forall t sz, stype_ok t -> type_size t = Some sz -> 0 <= sz.
Proof.
  fix IH 1. intros [p|p n|ms] sz Hok H.
  - injection H as <-. lia.
  - injection H as <-. cbn in Hok. lia.
  - apply (comp_size_mono_if ms); [|exact Hok|exact H]. clear sz Hok H.
    induction ms as [|[o c t] r IHr]; constructor; [exact (IH t)|exact IHr].
Qed.

Lemma members_nonneg ms : members_ok ms ->
  Forall (fun m => forall sz, type_size (sm_type m) = Some sz -> 0 <= sz) ms.
Proof.
  induction ms as [|[o c t] r IH]; intros Hok; constructor.
  - intros sz. apply type_size_nonneg, Hok.
  - apply IH, Hok.
Qed.

Theorem layout_no_overlap : stmt_layout_no_overlap.
Proof.
  intros fs cur fl e Hok _ H. revert fs cur fl e H Hok.
  apply (layout_fields_ind (fun fs cur fl e => Forall sfield_ok fs ->
    fields_in_order cur fl /\ cur <= e /\
    forall f, In f fl -> cur <= f_off f /\ f_off f + f_size f <= e)).
  - intros cur _. cbn. repeat split; try lia; contradiction.
  - intros f rest cur fl e _ IH Hok. apply IH. now inversion Hok.
  - intros f rest cur sz off fl e _ Ets _ Hle _ IH Hok.
    inversion Hok as [|? ? [_ Hf] Hrest]; subst.
    pose proof (type_size_nonneg _ _ Hf Ets) as Hsz.
    destruct (IH Hrest) as (IH1 & IH2 & IH3).
    cbn [fields_in_order f_off f_size]. split; [auto|]. split; [lia|].
    intros g [<-|Hin]; cbn [f_off f_size]; [lia|]. apply IH3 in Hin. lia.
Qed.
Print Assumptions layout_no_overlap.

Theorem block_length_covers : stmt_block_length_covers.
Proof.
  unfold stmt_block_length_covers, block_length. intros [x|] minimal b H.
  - destruct (Z.ltb_spec x minimal); [discriminate|]. injection H as <-.
    repeat split; [lia|discriminate|now intros y [= <-]].
  - injection H as <-. repeat split; [lia|discriminate].
Qed.
Print Assumptions block_length_covers.

Lemma layout_all_const fs cur fl e :
  layout_fields fs cur = Some (fl, e) ->
  forallb sf_const fs = match fl with [] => true | _ => false end.
Proof.
  revert fs cur fl e. apply layout_fields_ind; cbn [forallb].
  - reflexivity.
  - now intros f rest cur fl e ->.
  - now intros f rest cur sz off fl e ->.
Qed.

(* the generator's second walk computes a function of the validator's result *)
Fixpoint cursor_of (hdr cur : Z) (fl : list fld) : list cfld :=
  match fl with
  | [] => []
  | f :: r =>
    {| c_rel := f_off f - cur; c_abs := f_off f + hdr; c_size := f_size f;
       c_last := match r with [] => true | _ => false end |}
    :: cursor_of hdr (f_off f + f_size f) r
  end.

Lemma cursor_fields_layout fs hdr : forall cur,
  cursor_fields fs hdr cur = option_map (fun r => cursor_of hdr cur (fst r)) (layout_fields fs cur).
Proof.
  induction fs as [|f rest IH]; intros cur; cbn [cursor_fields layout_fields]; [reflexivity|].
  destruct (type_size (sf_type f)) as [sz|]; [|reflexivity].
  destruct (sf_const f); [apply IH|].
  destruct (place (sf_off f) cur sz) as [[off cur']|] eqn:Ep; [|reflexivity].
  apply place_some in Ep as (_ & _ & ->). rewrite IH.
  destruct (layout_fields rest (off + sz)) as [[fl e]|] eqn:El; [|reflexivity].
  cbn. now rewrite (layout_all_const _ _ _ _ El).
Qed.

Theorem cursor_offsets_agree : stmt_cursor_offsets_agree.
Proof.
  intros fs hdr cur fl e H. rewrite cursor_fields_layout, H.
  eexists. split; [reflexivity|]. cbn [fst]. revert fs cur fl e H.
  apply layout_fields_ind; cbn [cursor_of cursor_walk_ok]; auto.
  intros f rest cur sz off fl e _ _ _ Hle _ IH. cbn [c_rel c_abs c_size c_last f_off f_size].
  repeat split; auto; lia.
Qed.
Print Assumptions cursor_offsets_agree.

Theorem cursor_rejects_iff : stmt_cursor_rejects_iff.
Proof.
  intros fs hdr cur. rewrite cursor_fields_layout.
  destruct (layout_fields fs cur); split; (discriminate || reflexivity).
Qed.
Print Assumptions cursor_rejects_iff.

(* What a successful run of [member_offsets] and of [comp_size], which walk the
   members alike, looks like: constants are skipped, every other member is
   placed at [off >= cur] and the rest goes from its end. *)
Lemma member_offsets_ind (P : list smember -> Z -> list (option Z) -> Z -> Prop) :
  (forall cur, P [] cur [] cur) ->
  (forall o t r cur offs e sz, type_size t = Some sz ->
     P r cur offs e -> P (SMember o true t :: r) cur (None :: offs) e) ->
  (forall o t r cur off offs e sz, type_size t = Some sz ->
     off = (match o with Some x => x | None => cur end) -> cur <= off ->
     member_offsets r (off + sz) = Some offs -> comp_size r (off + sz) = Some e ->
     P r (off + sz) offs e -> P (SMember o false t :: r) cur (Some off :: offs) e) ->
  forall ms cur offs e,
    member_offsets ms cur = Some offs -> comp_size ms cur = Some e -> P ms cur offs e.
Proof.
  intros Hnil Hconst Hplace.
  induction ms as [|[o c t] r IH]; intros cur offs e Hm He; cbn [member_offsets] in Hm.
  - injection Hm as <-. injection He as <-. apply Hnil.
  - rewrite comp_size_cons in He.
    destruct (type_size t) as [sz|] eqn:Et; [|discriminate]. destruct c.
    + destruct (member_offsets r cur) as [offs'|] eqn:Er; [|discriminate]. injection Hm as <-.
      apply (Hconst _ _ _ _ _ _ sz Et), IH; assumption.
    + destruct (place o cur sz) as [[off cur']|] eqn:Ep; [|discriminate].
      apply place_some in Ep as (Eo & Hle & ->).
      destruct (member_offsets r (off + sz)) as [offs'|] eqn:Er; [|discriminate]. injection Hm as <-.
      apply (Hplace _ _ _ _ _ _ _ sz Et Eo Hle Er He), IH; assumption.
Qed.

Lemma member_offsets_length : forall ms cur offs e,
  member_offsets ms cur = Some offs -> comp_size ms cur = Some e -> length offs = length ms.
Proof. apply member_offsets_ind; cbn [length]; intros; congruence. Qed.

Lemma member_offsets_nth : forall ms cur offs e,
  member_offsets ms cur = Some offs -> comp_size ms cur = Some e ->
  forall k m, nth_error ms k = Some m ->
    if sm_const m then nth_error offs k = Some None
    else exists o, nth_error offs k = Some (Some o) /\
                   match sm_off m with Some x => o = x | None => True end.
Proof.
  refine (member_offsets_ind _ _ _ _).
  - intros cur [|k]; discriminate.
  - intros o t r cur offs e sz _ IH [|k] m Hk; [|apply IH, Hk]. injection Hk as <-. reflexivity.
  - intros o t r cur off offs e sz _ Eo _ _ _ IH [|k] m Hk; [|apply IH, Hk]. injection Hk as <-.
    exists off. split; [reflexivity|]. destruct o; exact Eo || exact I.
Qed.

Lemma member_offsets_bounds : forall ms cur offs e,
  member_offsets ms cur = Some offs -> comp_size ms cur = Some e ->
  Forall (fun m => forall sz, type_size (sm_type m) = Some sz -> 0 <= sz) ms ->
  cur <= e /\
  forall k o, nth_error offs k = Some (Some o) -> cur <= o /\
    forall m sz, nth_error ms k = Some m -> type_size (sm_type m) = Some sz -> o + sz <= e.
Proof.
  refine (member_offsets_ind _ _ _ _).
  - intros cur _. split; [lia|]. intros [|k]; discriminate.
  - intros o t r cur offs e sz _ IH Hn. destruct (IH (Forall_inv_tail Hn)) as [I1 I2].
    split; [exact I1|]. intros [|k] o' Ho; [discriminate|]. apply (I2 k o' Ho).
  - intros o t r cur off offs e sz Ht _ Hle _ _ IH Hn.
    destruct (IH (Forall_inv_tail Hn)) as [I1 I2]. pose proof (Forall_inv Hn sz Ht) as Hsz.
    split; [lia|]. intros [|k] o' Ho; cbn [nth_error] in Ho.
    + injection Ho as <-. split; [exact Hle|]. intros m sz' [= <-] Hs. cbn [sm_type] in Hs.
      rewrite Ht in Hs. injection Hs as <-. exact I1.
    + destruct (I2 k o' Ho) as [L U]. split; [lia|exact U].
Qed.

(* of two members that take space, the later one starts where the earlier one
   ends or after it *)
Lemma member_offsets_sep : forall ms cur offs e,
  member_offsets ms cur = Some offs -> comp_size ms cur = Some e ->
  Forall (fun m => forall sz, type_size (sm_type m) = Some sz -> 0 <= sz) ms ->
  forall i j oi oj mi szi, (i < j)%nat ->
    nth_error offs i = Some (Some oi) -> nth_error offs j = Some (Some oj) ->
    nth_error ms i = Some mi -> type_size (sm_type mi) = Some szi -> oi + szi <= oj.
Proof.
  refine (member_offsets_ind _ _ _ _).
  - intros cur _ [|i]; discriminate.
  - intros o t r cur offs e sz _ IH Hn [|i] [|j] oi oj mi szi Hij Hi Hj; try discriminate; try lia.
    apply (IH (Forall_inv_tail Hn) i j oi oj mi szi); [lia|assumption..].
  - intros o t r cur off offs e sz Ht _ _ Hm He IH Hn i [|j] oi oj mi szi Hij Hi Hj Hmi Hs; [lia|].
    destruct i as [|i]; [|apply (IH (Forall_inv_tail Hn) i j oi oj mi szi); [lia|assumption..]].
    injection Hi as <-. injection Hmi as <-. cbn [sm_type] in Hs. rewrite Ht in Hs. injection Hs as <-.
    apply (proj2 (member_offsets_bounds _ _ _ _ Hm He (Forall_inv_tail Hn)) j oj Hj).
Qed.

Theorem member_offsets_in_order : stmt_member_offsets_in_order.
Proof.
  intros ms offs sz Hok Hm Hs. split; [exact (member_offsets_length _ _ _ _ Hm Hs)|].
  intros k o m msz Ho Hk Hsz.
  destruct (member_offsets_bounds _ _ _ _ Hm Hs (members_nonneg _ Hok)) as [_ Hb].
  destruct (Hb k o Ho) as [L U]. split; [exact L|exact (U m msz Hk Hsz)].
Qed.
Print Assumptions member_offsets_in_order.
