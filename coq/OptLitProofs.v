(* OptLitProofs.v — proofs about OptLit.v: the generator's default literal
   tables denote the SBE defaults, explicit integer attribute values are
   reproduced exactly. *)
From Coq Require Import ZArith Bool List Lia Ascii String.
From Sbepp Require Import CInt CIntFacts Fp Optional OptLit.
Import IEEE Opt Lit ListNotations.
Local Open Scope Z_scope.

(* the 33-entry table, evaluated once as one boolean *)

Definition res_is (r : res Z) (z : Z) : bool :=
  match r with Ok v => v =? z | _ => false end.

Lemma res_is_true r z : res_is r z = true -> r = Ok z.
Proof. destruct r; try discriminate. intros H. apply Z.eqb_eq in H. congruence. Qed.

Lemma table_ok_true :
  forallb (fun p => forallb (fun w => res_is (denote p (default_lit w p)) (builtin_val w p))
                            [WMin; WMax; WNull]) all_prims = true.
Proof. vm_compute. reflexivity. Qed.

Lemma all_prims_complete p : In p all_prims.
Proof. destruct p; cbn; auto 12. Qed.

Lemma defaults_table_via_forallb w p : res_is (denote p (default_lit w p)) (builtin_val w p) = true.
Proof.
  pose proof table_ok_true as H.
  rewrite forallb_forall in H. specialize (H p (all_prims_complete p)).
  rewrite forallb_forall in H. apply H. destruct w; cbn; auto.
Qed.

Lemma defaults_table w p : denote p (default_lit w p) = Ok (builtin_val w p).
Proof. apply res_is_true, defaults_table_via_forallb. Qed.

(* a generated type without minValue/maxValue/nullValue has exactly the
   descriptor of the built-in type *)
Lemma defaults_are_builtin p :
  denote p (gen_value WMin p None) = Ok (td_min (builtin p)) /\
  denote p (gen_value WMax p None) = Ok (td_max (builtin p)) /\
  denote p (gen_value WNull p None) = Ok (td_null (builtin p)).
Proof.
  repeat split; [apply (defaults_table WMin)|apply (defaults_table WMax)|apply (defaults_table WNull)].
Qed.

Example legacy_int16_null_refuted :
  (* `return {-327678};` in a function returning std::int16_t: narrowing, the
     generated header does not compile *)
  denote PInt16 (LegacyGen.gen_value WNull PInt16 None) = IllFormed.
Proof. vm_compute. reflexivity. Qed.

Example legacy_leading_zero_refuted :
  (* minValue="010" is accepted as 10 by the validator and printed as the octal
     literal 010 = 8; minValue="08" gives a header that does not compile *)
  from_chars PInt32 (list_ascii_of_string "010") = Some 10 /\
  denote PInt32 (LegacyGen.gen_value WMin PInt32 (Some "010"%string)) = Ok 8 /\
  from_chars PInt8 (list_ascii_of_string "-010") = Some (-10) /\
  denote PInt8 (LegacyGen.gen_value WMin PInt8 (Some "-010"%string)) = Ok (-8) /\
  from_chars PUint8 (list_ascii_of_string "08") = Some 8 /\
  denote PUint8 (LegacyGen.gen_value WMax PUint8 (Some "08"%string)) = Unsupported.
Proof. vm_compute. repeat split; reflexivity. Qed.

(* the floating-point special values of XML (NaN, INF, +INF, -INF) *)
Lemma explicit_fp_specials :
  denote PFloat (gen_value WNull PFloat (Some "NaN"%string)) = Ok (fl_qnan F32) /\
  denote PFloat (gen_value WMax PFloat (Some "INF"%string)) = Ok (fl_inf F32) /\
  denote PFloat (gen_value WMax PFloat (Some "+INF"%string)) = Ok (fl_inf F32) /\
  denote PFloat (gen_value WMin PFloat (Some "-INF"%string)) = Ok (fneg F32 (fl_inf F32)) /\
  denote PDouble (gen_value WNull PDouble (Some "NaN"%string)) = Ok (fl_qnan F64) /\
  denote PDouble (gen_value WMax PDouble (Some "INF"%string)) = Ok (fl_inf F64) /\
  denote PDouble (gen_value WMax PDouble (Some "+INF"%string)) = Ok (fl_inf F64) /\
  denote PDouble (gen_value WMin PDouble (Some "-INF"%string)) = Ok (fneg F64 (fl_inf F64)).
Proof. vm_compute. repeat split; reflexivity. Qed.

(* explicit integer values: decimal digits with an optional minus sign *)

Definition dvalue (ds : chars) : Z := value_of 10 (map digit_val ds).
Definition stext (neg : bool) (ds : chars) : chars := if neg then "-"%char :: ds else ds.
Definition sval (neg : bool) (v : Z) : Z := if neg then - v else v.

Lemma is_digit_code c : is_digit c = true -> 48 <= code c <= 57.
Proof. unfold is_digit. intros [H1%Z.leb_le H2%Z.leb_le]%andb_prop. split; assumption. Qed.

(* a digit is none of ' ' (32), '+' (43), '-' (45) *)
Lemma digit_code_neq c k : is_digit c = true -> k < 48 -> (code c =? k) = false.
Proof. intros H Hk. apply is_digit_code in H. apply Z.eqb_neq. lia. Qed.

Lemma code_minus c : code c = 45 -> c = "-"%char.
Proof.
  unfold code. intros H. rewrite <- (ascii_N_embedding c).
  replace (N_of_ascii c) with 45%N by lia. reflexivity.
Qed.

Lemma digits_cons c ds :
  forallb is_digit (c :: ds) = true <-> is_digit c = true /\ forallb is_digit ds = true.
Proof. apply andb_true_iff. Qed.

Lemma span_app (p : ascii -> bool) ds rest :
  forallb p ds = true ->
  match rest with [] => True | c :: _ => p c = false end ->
  span p (ds ++ rest) = (ds, rest).
Proof.
  intros Hds Hrest. induction ds as [|c ds IH]; cbn.
  - destruct rest as [|c r]; [reflexivity|]. cbn. rewrite Hrest. reflexivity.
  - cbn in Hds. apply andb_true_iff in Hds as [Hc Hds]. rewrite Hc, (IH Hds). reflexivity.
Qed.

Lemma fold_value_nonneg ds acc :
  0 <= acc -> forallb is_digit ds = true ->
  0 <= fold_left (fun a d => a * 10 + d) (map digit_val ds) acc.
Proof.
  revert acc. induction ds as [|c ds IH]; intros acc Hacc Hds; cbn; [exact Hacc|].
  apply digits_cons in Hds as [Hc Hds]. apply is_digit_code in Hc.
  apply IH; [|exact Hds]. unfold digit_val. lia.
Qed.

Lemma dvalue_nonneg ds : forallb is_digit ds = true -> 0 <= dvalue ds.
Proof. apply (fold_value_nonneg ds 0). lia. Qed.

Inductive accepted (p : prim) (s : chars) (z : Z) : Prop :=
  acc t neg ds :
    kind p = KInt t -> (neg = true -> is_signed t = true) -> s = stext neg ds ->
    ds <> [] -> forallb is_digit ds = true -> z = sval neg (dvalue ds) ->
    CInt.in_range t z = true -> accepted p s z.

Lemma from_chars_inv p s z : from_chars p s = Some z -> accepted p s z.
Proof.
  unfold from_chars. destruct (kind p) as [t|f] eqn:Hk; [|discriminate].
  destruct s as [|c r]; [discriminate|].
  destruct ((code c =? 45) && is_signed t) eqn:Hsign; cbn [fst snd].
  - apply andb_true_iff in Hsign as [Hc Hs]. apply Z.eqb_eq, code_minus in Hc as ->.
    destruct r as [|d r']; [discriminate|].
    destruct (forallb is_digit (d :: r')) eqn:Hd; [|discriminate].
    destruct (CInt.in_range t (- value_of 10 (map digit_val (d :: r')))) eqn:Hr; [|discriminate].
    intros [= <-]. apply (acc p _ _ t true (d :: r')); auto. discriminate.
  - destruct (forallb is_digit (c :: r)) eqn:Hd; [|discriminate].
    destruct (CInt.in_range t (value_of 10 (map digit_val (c :: r)))) eqn:Hr; [|discriminate].
    intros [= <-]. apply (acc p _ _ t false (c :: r)); auto; discriminate.
Qed.

Lemma from_chars_intro p s z : accepted p s z -> from_chars p s = Some z.
Proof.
  intros [t neg ds Hk Hs -> Hne Hd -> Hr]. unfold from_chars. rewrite Hk.
  destruct ds as [|c r]; [congruence|]. destruct neg; cbn [stext sval] in *.
  - change (code "-" =? 45) with true. rewrite (Hs eq_refl). cbn [andb fst snd].
    rewrite Hd. fold (dvalue (c :: r)). rewrite Hr. reflexivity.
  - pose proof (proj1 (digits_cons c r) Hd) as [Hc _].
    rewrite (digit_code_neq c 45 Hc) by reflexivity. cbn [andb fst snd]. rewrite Hd. fold (dvalue (c :: r)). rewrite Hr. reflexivity.
Qed.

(* canonical decimal digits: a single digit, or no leading zero *)
Definition canonical (ds : chars) : Prop :=
  match ds with
  | [] => False
  | [_] => True
  | z :: _ => code z <> 48
  end.

Lemma strip_zeros_cons z d r :
  strip_zeros (z :: d :: r) =
  if (code z =? 48) && is_digit d then strip_zeros (d :: r) else z :: d :: r.
Proof. reflexivity. Qed.

Lemma strip_zeros_spec ds :
  ds <> [] -> forallb is_digit ds = true ->
  forallb is_digit (strip_zeros ds) = true /\
  dvalue (strip_zeros ds) = dvalue ds /\ canonical (strip_zeros ds).
Proof.
  induction ds as [|z r IH]; [congruence|]. intros _ Hd.
  destruct r as [|d r']; [repeat split; assumption|].
  rewrite strip_zeros_cons. pose proof Hd as Hd0. apply digits_cons in Hd as [_ Hd].
  destruct (Z.eqb_spec (code z) 48) as [Hz|Hz]; cbn [andb].
  - apply digits_cons in Hd as [Hdd Hd]. rewrite Hdd.
    destruct IH as (H1 & H2 & H3); [discriminate|apply digits_cons; auto|].
    repeat split; try assumption.
    rewrite H2. unfold dvalue, value_of. cbn [map fold_left]. unfold digit_val.
    rewrite Hz. reflexivity.
  - repeat split; assumption.
Qed.

Lemma strip_stext neg ds :
  ds <> [] -> forallb is_digit ds = true ->
  strip_leading_zeros (stext neg ds) = stext neg (strip_zeros ds).
Proof.
  intros Hne Hd. destruct neg; [reflexivity|]. destruct ds as [|c r]; [congruence|].
  apply digits_cons in Hd as [Hc _]. unfold stext, strip_leading_zeros.
  rewrite !(digit_code_neq c _ Hc) by reflexivity. reflexivity.
Qed.

Definition suffix (u : bool) : chars := if u then ul else [].

Lemma lex_suffix_suffix v d u : lex_suffix v d (suffix u) = Some (TInt v d u, []).
Proof. destruct u; reflexivity. Qed.

Lemma lex_dec_canon ds u :
  ds <> [] -> forallb is_digit ds = true ->
  lex_dec (ds ++ suffix u) = Some (TInt (dvalue ds) true u, []).
Proof.
  intros Hne Hd. unfold lex_dec.
  rewrite (span_app is_digit ds (suffix u) Hd) by (destruct u; [reflexivity|exact I]).
  destruct ds; [congruence|]. apply lex_suffix_suffix.
Qed.

Lemma lex_int_canon ds u :
  canonical ds -> forallb is_digit ds = true ->
  lex_int (ds ++ suffix u) = Some (TInt (dvalue ds) true u, []).
Proof.
  intros Hc Hd.
  assert (Hne : ds <> []) by (destruct ds; [contradiction|discriminate]).
  rewrite <- (lex_dec_canon ds u Hne Hd).
  destruct ds as [|z [|x r]]; [contradiction| |].
  - (* a single digit: what follows is neither x nor a digit *)
    unfold lex_int. destruct u; [|reflexivity]. cbn [app suffix ul].
    destruct (code z =? 48); reflexivity.
  - cbn in Hc. unfold lex_int. cbn [app].
    destruct (Z.eqb_spec (code z) 48); [contradiction|reflexivity].
Qed.

Lemma tokenize_minus k r :
  tokenize (S k) ("-"%char :: r) = option_map (cons TMinus) (tokenize k r).
Proof. reflexivity. Qed.

Lemma tokenize_stext neg ds u :
  canonical ds -> forallb is_digit ds = true ->
  tokenize (S (List.length (stext neg (ds ++ suffix u)))) (stext neg (ds ++ suffix u))
  = Some (if neg then [TMinus; TInt (dvalue ds) true u] else [TInt (dvalue ds) true u]).
Proof.
  intros Hc Hd.
  assert (T : tokenize (S (List.length (ds ++ suffix u))) (ds ++ suffix u)
              = Some [TInt (dvalue ds) true u]).
  { pose proof (lex_int_canon ds u Hc Hd) as Hlex.
    destruct ds as [|c r]; [contradiction|]. apply digits_cons in Hd as [Hdig _].
    cbn [app List.length] in *. cbn [tokenize].
    rewrite !(digit_code_neq c _ Hdig) by reflexivity. rewrite Hdig, Hlex. reflexivity. }
  destruct neg; [|exact T]. cbn [stext List.length]. rewrite tokenize_minus, T. reflexivity.
Qed.

Lemma range_bounds t z : CInt.in_range t z = true -> - 2 ^ 63 <= z <= 2 ^ 64 - 1.
Proof.
  rewrite in_range_iff.
  assert (- 2 ^ 63 <= tmin t /\ tmax t <= 2 ^ 64 - 1) by (destruct t; split; discriminate).
  lia.
Qed.

(* -v or v, a literal of type T, initialising a value of type p *)
Lemma eval_signed_literal p t neg v u T :
  type_of_int_literal v true u = Some T -> kind p = KInt t ->
  CInt.in_range t (sval neg v) = true ->
  (neg = true -> promote T = T /\ is_signed T = true /\ CInt.in_range T (- v) = true) ->
  bind (parse_expr (if neg then [TMinus; TInt v true u] else [TInt v true u])) (convert p)
  = Ok (sval neg v).
Proof.
  intros HT Hk Hr Hn. unfold parse_expr.
  destruct neg; cbn [sval parse_unary] in *; rewrite HT; cbn [bind fst snd List.length parse_rest].
  - destruct (Hn eq_refl) as (HP & HS & HI). unfold c_neg, cneg, arith. rewrite HP, HS, HI.
    cbn [bind fst snd parse_rest]. unfold convert. rewrite Hk, Hr. reflexivity.
  - unfold convert. rewrite Hk, Hr. reflexivity.
Qed.

(* [lex.icon] for a decimal literal without suffix: int, else long *)
Lemma dec_literal_type v :
  0 <= v <= max_signed_literal ->
  exists T, type_of_int_literal v true false = Some T /\
            promote T = T /\ is_signed T = true /\ CInt.in_range T (- v) = true.
Proof.
  intros H. unfold max_signed_literal in H. unfold type_of_int_literal.
  destruct (CInt.in_range I32 v) eqn:E; [exists I32 | exists I64].
  - repeat split. apply in_range_iff in E. apply in_range_iff.
    cbv [tmin tmax is_signed bits] in *. lia.
  - assert (R : forall z, - v <= z <= v -> CInt.in_range I64 z = true)
      by (intros z Hz; apply in_range_iff; cbv [tmin tmax is_signed bits]; lia).
    rewrite !R by lia. repeat split.
Qed.

Lemma denote_signed p t neg ds :
  kind p = KInt t -> canonical ds -> forallb is_digit ds = true ->
  CInt.in_range t (sval neg (dvalue ds)) = true -> dvalue ds <= max_signed_literal ->
  denote_chars p (stext neg ds) = Ok (sval neg (dvalue ds)).
Proof.
  intros Hk Hc Hd Hr Hmax. unfold denote_chars.
  pose proof (tokenize_stext neg ds false Hc Hd) as Ht.
  unfold suffix in Ht. rewrite app_nil_r in Ht. rewrite Ht.
  destruct (dec_literal_type (dvalue ds)) as (T & HT & HN);
    [split; [apply dvalue_nonneg|]; assumption|].
  apply (eval_signed_literal p t neg _ false T); auto.
Qed.

Lemma denote_ul ds :
  canonical ds -> forallb is_digit ds = true ->
  CInt.in_range U64 (dvalue ds) = true ->
  denote_chars PUint64 (ds ++ ul) = Ok (dvalue ds).
Proof.
  intros Hc Hd Hr. unfold denote_chars.
  change (ds ++ ul)%list with (stext false (ds ++ suffix true)).
  rewrite (tokenize_stext false ds true Hc Hd).
  apply (eval_signed_literal PUint64 U64 false _ true U64); try easy.
  unfold type_of_int_literal. rewrite Hr. reflexivity.
Qed.

(* utils::to_integer_literal leaves a text that from_chars accepts as it is,
   except for the two values that have no plain literal *)
Lemma to_integer_literal_cases p s z :
  accepted p s z ->
  to_integer_literal p s = s /\ - max_signed_literal <= z <= max_signed_literal \/
  p = PInt64 /\ z = - 2 ^ 63 /\ to_integer_literal p s = int64_min_chars \/
  p = PUint64 /\ max_signed_literal < z /\ to_integer_literal p s = (s ++ ul)%list.
Proof.
  intros A. pose proof (from_chars_intro p s z A) as F.
  destruct A as [t neg ds Hk Hs -> Hne Hd Hz Hr].
  apply in_range_iff in Hr. pose proof (dvalue_nonneg ds Hd) as H0.
  unfold to_integer_literal. unfold max_signed_literal, min_signed_literal.
  destruct p; try discriminate Hk; injection Hk as <-; cbv [tmin tmax is_signed bits] in Hr;
    try (left; split; [reflexivity|lia]).
  - (* int64 *)
    destruct neg; cbn [stext sval] in *.
    + change (code "-" =? 45) with true. cbv iota. rewrite F.
      destruct (Z.ltb_spec z (-9223372036854775807)); [right; left|left]; repeat split; lia.
    + destruct ds as [|c r]; [congruence|]. apply digits_cons in Hd as [Hc _].
      rewrite (digit_code_neq c 45 Hc) by reflexivity. left. split; [reflexivity|lia].
  - (* uint64 *)
    rewrite F. rewrite Z.gtb_ltb.
    destruct (Z.ltb_spec 9223372036854775807 z); [right; right|left]; repeat split; lia.
Qed.

Lemma explicit_int_exact p s z :
  from_chars p s = Some z ->
  denote_chars p (numeric_literal_to_value p s) = Ok z.
Proof.
  intros Hfc. destruct (from_chars_inv p s z Hfc) as [t neg ds Hk Hs -> Hne Hd -> Hr].
  unfold numeric_literal_to_value, render_value. rewrite Hk, (strip_stext neg ds Hne Hd).
  destruct (strip_zeros_spec ds Hne Hd) as (Hd' & Hv & Hcan). rewrite <- Hv in *.
  set (ds' := strip_zeros ds) in *.
  assert (A : accepted p (stext neg ds') (sval neg (dvalue ds'))).
  { apply (acc p _ _ t neg ds'); auto. destruct ds'; [contradiction|discriminate]. }
  destruct (to_integer_literal_cases _ _ _ A) as [[-> B] | [(-> & E & ->) | (-> & B & ->)]].
  - apply (denote_signed p t neg ds' Hk Hcan Hd' Hr). destruct neg; cbn [sval] in B; lia.
  - rewrite E. vm_compute. reflexivity.
  - injection Hk as <-. destruct neg; [discriminate (Hs eq_refl)|].
    apply denote_ul; assumption.
Qed.

(* the string-level and the character-list-level generator agree *)
Lemma gen_value_chars_agree w p e :
  list_ascii_of_string (gen_value w p e) = gen_value_chars w p (option_map list_ascii_of_string e) /\
  list_ascii_of_string (LegacyGen.gen_value w p e) =
    LegacyGen.gen_value_chars w p (option_map list_ascii_of_string e).
Proof.
  destruct e as [s|]; cbn [option_map gen_value gen_value_chars LegacyGen.gen_value
                           LegacyGen.gen_value_chars].
  - rewrite !list_ascii_of_string_of_list_ascii. split; reflexivity.
  - destruct w, p; split; reflexivity.
Qed.

Lemma explicit_int_exact_string p w s z :
  from_chars p (list_ascii_of_string s) = Some z ->
  denote p (gen_value w p (Some s)) = Ok z.
Proof.
  intros H. unfold denote, gen_value. rewrite list_ascii_of_string_of_list_ascii.
  apply explicit_int_exact. exact H.
Qed.

Example explicit_int_exact_nonvacuous :
  from_chars PInt64 (list_ascii_of_string "-9223372036854775808") = Some (- 2 ^ 63) /\
  gen_value WNull PInt64 (Some "-9223372036854775808"%string) = "-9223372036854775807 -1"%string /\
  from_chars PUint64 (list_ascii_of_string "18446744073709551615") = Some (2 ^ 64 - 1) /\
  gen_value WMax PUint64 (Some "18446744073709551615"%string) = "18446744073709551615UL"%string /\
  from_chars PInt32 (list_ascii_of_string "-0010") = Some (-10) /\
  gen_value WMin PInt32 (Some "-0010"%string) = "-10"%string /\
  from_chars PChar (list_ascii_of_string "65") = Some 65 /\
  from_chars PUint8 (list_ascii_of_string "256") = None /\
  from_chars PUint8 (list_ascii_of_string "-1") = None /\
  from_chars PInt8 (list_ascii_of_string "+1") = None.
Proof. vm_compute. repeat split; reflexivity. Qed.

Example defaults_table_nonvacuous :
  denote PInt64 (default_lit WNull PInt64) = Ok (- 2 ^ 63) /\
  denote PInt16 (default_lit WNull PInt16) = Ok (-32768) /\
  denote PChar (default_lit WMax PChar) = Ok 126 /\
  denote PDouble (default_lit WNull PDouble) = Ok 9221120237041090560.
Proof. repeat apply conj; vm_compute; reflexivity. Qed.
