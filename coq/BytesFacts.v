From Coq Require Import ZArith List Bool Lia.
From Sbepp Require Import Bytes.
From Sbepp Require Export ListFacts.
Import ListNotations.
Local Open Scope Z_scope.
(* in this file [lia] also decides goals with [/] and [mod] by constants *)
Local Ltac Zify.zify_post_hook ::= Z.div_mod_to_equations.

Lemma byte_ok_iff b : byte_ok b = true <-> 0 <= b < 256.
Proof. unfold byte_ok. rewrite andb_true_iff, Z.leb_le, Z.ltb_lt. tauto. Qed.

Lemma bytes_ok_Forall bs : bytes_ok bs = true <-> Forall (fun b => 0 <= b < 256) bs.
Proof.
  unfold bytes_ok. rewrite forallb_forall, Forall_forall.
  split; intros H x Hx; apply byte_ok_iff; auto.
Qed.

Lemma bytes_ok_app a b : bytes_ok (a ++ b) = bytes_ok a && bytes_ok b.
Proof. unfold bytes_ok. apply forallb_app. Qed.

Lemma bytes_ok_rev a : bytes_ok (rev a) = bytes_ok a.
Proof.
  induction a as [|x a IH]; [reflexivity|]. cbn [rev].
  rewrite bytes_ok_app, IH. cbn. rewrite andb_true_r. apply andb_comm.
Qed.

Lemma bytes_ok_split n bs : bytes_ok bs = true ->
  bytes_ok (firstn n bs) = true /\ bytes_ok (skipn n bs) = true.
Proof. intros H. rewrite <- (firstn_skipn n bs), bytes_ok_app in H. apply andb_true_iff, H. Qed.

Lemma bytes_ok_slice b off n : bytes_ok b = true -> bytes_ok (slice b off n) = true.
Proof. intros H. unfold slice. apply bytes_ok_split, bytes_ok_split, H. Qed.

Lemma bytes_ok_splice b off bs :
  bytes_ok b = true -> bytes_ok bs = true -> bytes_ok (splice b off bs) = true.
Proof.
  intros Hb Hs. unfold splice.
  rewrite !bytes_ok_app, Hs, (proj1 (bytes_ok_split _ b Hb)), (proj2 (bytes_ok_split _ b Hb)).
  reflexivity.
Qed.

Lemma len_app a b : len (a ++ b) = len a + len b.
Proof. unfold len. rewrite app_length. lia. Qed.

Lemma len_nonneg a : 0 <= len a.
Proof. unfold len. lia. Qed.

Lemma length_enc_le w x : length (enc_le w x) = w.
Proof. revert x. induction w as [|w IH]; intros x; cbn; [reflexivity|]. now rewrite IH. Qed.

Lemma length_enc be w x : length (enc be w x) = w.
Proof. unfold enc. destruct be; rewrite ?rev_length; apply length_enc_le. Qed.

Lemma len_enc be w x : len (enc be w x) = Z.of_nat w.
Proof. unfold len. now rewrite length_enc. Qed.

Lemma enc_le_ok w x : bytes_ok (enc_le w x) = true.
Proof.
  revert x. induction w as [|w IH]; intros x; cbn; [reflexivity|].
  unfold bytes_ok in *. rewrite IH, andb_true_r. apply byte_ok_iff. lia.
Qed.

Lemma enc_ok be w x : bytes_ok (enc be w x) = true.
Proof. unfold enc. destruct be; rewrite ?bytes_ok_rev; apply enc_le_ok. Qed.

Lemma dec_le_bound bs : bytes_ok bs = true -> 0 <= dec_le bs < 256 ^ Z.of_nat (length bs).
Proof.
  induction bs as [|b r IH]; intros H; cbn [dec_le length].
  - cbn. lia.
  - cbn in H. apply andb_true_iff in H. destruct H as [Hb Hr].
    apply byte_ok_iff in Hb. specialize (IH Hr).
    rewrite Nat2Z.inj_succ, Z.pow_succ_r by lia. lia.
Qed.

Theorem dec_le_enc_le w x : dec_le (enc_le w x) = x mod 256 ^ Z.of_nat w.
Proof.
  revert x. induction w as [|w IH]; intros x.
  - cbn. now rewrite Z.mod_1_r.
  - cbn [enc_le dec_le]. rewrite IH, Nat2Z.inj_succ, Z.pow_succ_r by lia.
    assert (0 < 256 ^ Z.of_nat w) by (apply Z.pow_pos_nonneg; lia).
    rewrite Z.rem_mul_r by lia. lia.
Qed.

Theorem enc_le_dec_le bs : bytes_ok bs = true -> enc_le (length bs) (dec_le bs) = bs.
Proof.
  induction bs as [|b r IH]; intros H; [reflexivity|].
  cbn in H. apply andb_true_iff in H. destruct H as [Hb Hr]. apply byte_ok_iff in Hb.
  cbn [length enc_le dec_le]. f_equal.
  - lia.
  - replace ((b + 256 * dec_le r) / 256) with (dec_le r) by lia. auto.
Qed.

Theorem dec_enc be w x : dec be (enc be w x) = x mod 256 ^ Z.of_nat w.
Proof. unfold dec, enc. destruct be; rewrite ?rev_involutive; apply dec_le_enc_le. Qed.

Theorem enc_dec be bs : bytes_ok bs = true -> enc be (length bs) (dec be bs) = bs.
Proof.
  intros H. unfold dec, enc. destruct be.
  - rewrite <- (rev_length bs), enc_le_dec_le by (now rewrite bytes_ok_rev).
    apply rev_involutive.
  - now apply enc_le_dec_le.
Qed.

Lemma dec_enc_small be w x : 0 <= x < 256 ^ Z.of_nat w -> dec be (enc be w x) = x.
Proof. intros H. rewrite dec_enc. apply Z.mod_small, H. Qed.

Lemma dec_bound be bs : bytes_ok bs = true -> 0 <= dec be bs < 256 ^ Z.of_nat (length bs).
Proof.
  intros H. unfold dec. destruct be; [|apply dec_le_bound, H].
  rewrite <- rev_length. apply dec_le_bound. now rewrite bytes_ok_rev.
Qed.

Theorem enc_be_is_rev_le w x : enc true w x = rev (enc false w x).
Proof. reflexivity. Qed.

(* both C++ implementations compute the specification *)
Theorem get_primitive_bitcast_spec be bs : get_primitive_bitcast be bs = dec be bs.
Proof. unfold get_primitive_bitcast, dec. destruct be; reflexivity. Qed.

Theorem set_primitive_bitcast_spec be w x : set_primitive_bitcast be w x = enc be w x.
Proof. unfold set_primitive_bitcast, enc. destruct be; reflexivity. Qed.

Theorem get_primitive_memcpy_spec be bs : bytes_ok bs = true ->
  get_primitive_memcpy be bs = dec be bs.
Proof.
  intros H. unfold get_primitive_memcpy, dec, byteswap. destruct be; [|reflexivity].
  now rewrite enc_le_dec_le.
Qed.

Theorem set_primitive_memcpy_spec be w x : set_primitive_memcpy be w x = enc be w x.
Proof.
  unfold set_primitive_memcpy, enc, byteswap. destruct be; [|reflexivity].
  pose proof (enc_le_dec_le (rev (enc_le w x))) as H.
  rewrite rev_length, length_enc_le in H. apply H.
  rewrite bytes_ok_rev. apply enc_le_ok.
Qed.

Lemma interp_to_raw p raw :
  0 <= raw < 2 ^ (8 * Z.of_nat (prim_size p)) -> to_raw p (interp p raw) = raw.
Proof.
  intros H. unfold to_raw, interp.
  set (m := 2 ^ (8 * Z.of_nat (prim_size p))) in *.
  assert (0 < m) by (subst m; apply Z.pow_pos_nonneg; lia).
  destruct (prim_signed p); [|apply Z.mod_small; lia].
  destruct (Z.ltb_spec raw (m / 2)); [apply Z.mod_small; lia|].
  replace (raw - m) with (raw + (-1) * m) by lia. rewrite Z.mod_add by lia.
  apply Z.mod_small; lia.
Qed.

Lemma in_buf_iff b off n : in_buf b off n = true <-> 0 <= off /\ 0 <= n /\ off + n <= len b.
Proof. unfold in_buf. rewrite !andb_true_iff, !Z.leb_le. tauto. Qed.

Lemma len_nil : len [] = 0.
Proof. reflexivity. Qed.

Lemma nth_slice b off n i d : (i < Z.to_nat n)%nat ->
  nth i (slice b off n) d = nth (Z.to_nat off + i) b d.
Proof. intros Hi. unfold slice. rewrite nth_firstn_lt by exact Hi. apply nth_skipn. Qed.

Lemma length_slice b off n : in_buf b off n = true -> length (slice b off n) = Z.to_nat n.
Proof.
  intros H. apply in_buf_iff in H. unfold slice, len in *.
  rewrite firstn_length, skipn_length. lia.
Qed.

Lemma len_slice b off n : in_buf b off n = true -> len (slice b off n) = n.
Proof.
  intros H. unfold len. rewrite length_slice by exact H. apply in_buf_iff in H. lia.
Qed.

Lemma slice_zero b off : slice b off 0 = [].
Proof. reflexivity. Qed.

Lemma slice_app b p m n : 0 <= p /\ 0 <= m /\ 0 <= n ->
  slice b p m ++ slice b (p + m) n = slice b p (m + n).
Proof.
  intros (Hp & Hm & Hn). unfold slice. rewrite !Z2Nat.inj_add by assumption.
  rewrite skipn_add. symmetry. apply firstn_add.
Qed.

Lemma slice_slice b a n i k : 0 <= a /\ 0 <= i /\ 0 <= k /\ i + k <= n ->
  slice (slice b a n) i k = slice b (a + i) k.
Proof.
  intros (Ha & Hi & Hk & Hle). unfold slice.
  rewrite skipn_firstn_comm, <- skipn_add, firstn_firstn, Z2Nat.inj_add by assumption.
  f_equal. lia.
Qed.

Lemma slice_full b : slice b 0 (len b) = b.
Proof. unfold slice, len. rewrite Nat2Z.id. apply firstn_all. Qed.

Lemma splice_full b bs : length bs = length b -> splice b 0 bs = bs.
Proof. intros H. unfold splice. cbn. rewrite H, skipn_all. apply app_nil_r. Qed.

(* Every bounds-checked range presents the buffer as [pre ++ mid ++ post];
   the facts about [slice] and [splice] are proved on that presentation. *)
Lemma buf_split b pos n : in_buf b pos n = true ->
  exists pre mid post, b = pre ++ mid ++ post /\ len pre = pos /\ len mid = n.
Proof.
  intros H. apply in_buf_iff in H. unfold len in *.
  exists (firstn (Z.to_nat pos) b), (slice b pos n), (skipn (Z.to_nat n) (skipn (Z.to_nat pos) b)).
  unfold slice. rewrite !firstn_skipn, !firstn_length, skipn_length. repeat split; lia.
Qed.

Lemma in_buf_mid pre mid post off n : in_buf mid off n = true ->
  in_buf (pre ++ mid ++ post) (len pre + off) n = true.
Proof. rewrite !in_buf_iff, !len_app. unfold len. lia. Qed.

Lemma slice_mid pre mid post off n : in_buf mid off n = true ->
  slice (pre ++ mid ++ post) (len pre + off) n = slice mid off n.
Proof.
  intros H. apply in_buf_iff in H. unfold slice, len in *.
  replace (Z.to_nat (Z.of_nat (length pre) + off)) with (length pre + Z.to_nat off)%nat by lia.
  rewrite skipn_app_2, skipn_app_le by lia.
  apply firstn_app_le. rewrite skipn_length. lia.
Qed.

Lemma splice_mid pre mid post off bs : in_buf mid off (len bs) = true ->
  splice (pre ++ mid ++ post) (len pre + off) bs = pre ++ splice mid off bs ++ post.
Proof.
  intros H. apply in_buf_iff in H. unfold splice, len in *.
  replace (Z.to_nat (Z.of_nat (length pre) + off)) with (length pre + Z.to_nat off)%nat by lia.
  rewrite firstn_app_2, firstn_app_le by lia.
  rewrite <- Nat.add_assoc, skipn_app_2, skipn_app_le by lia.
  now rewrite <- !app_assoc.
Qed.

Lemma slice_app_mid pre mid post :
  slice (pre ++ mid ++ post) (len pre) (len mid) = mid.
Proof.
  rewrite <- (Z.add_0_r (len pre)), slice_mid; [apply slice_full|].
  apply in_buf_iff. unfold len. lia.
Qed.

Lemma splice_app_mid pre mid post bs : length bs = length mid ->
  splice (pre ++ mid ++ post) (len pre) bs = pre ++ bs ++ post.
Proof.
  intros Hl. rewrite <- (Z.add_0_r (len pre)), splice_mid, splice_full; [reflexivity|exact Hl|].
  apply in_buf_iff. unfold len. lia.
Qed.

Lemma len_splice b off bs : in_buf b off (len bs) = true -> len (splice b off bs) = len b.
Proof.
  intros H. destruct (buf_split _ _ _ H) as (pre & mid & post & -> & <- & Hl).
  rewrite splice_app_mid, !len_app by (unfold len in Hl; lia). lia.
Qed.

Lemma length_splice b off bs : in_buf b off (len bs) = true ->
  length (splice b off bs) = length b.
Proof. intros H. apply Nat2Z.inj, (len_splice b off bs H). Qed.

Lemma slice_splice_same b off bs : in_buf b off (len bs) = true ->
  slice (splice b off bs) off (len bs) = bs.
Proof.
  intros H. destruct (buf_split _ _ _ H) as (pre & mid & post & -> & <- & Hl).
  rewrite splice_app_mid by (unfold len in Hl; lia). apply slice_app_mid.
Qed.

Lemma splice_slice_id b pos n : in_buf b pos n = true -> splice b pos (slice b pos n) = b.
Proof.
  intros H. destruct (buf_split b pos n H) as (pre & mid & post & -> & <- & <-).
  rewrite slice_app_mid. now apply splice_app_mid.
Qed.

Lemma nth_splice_other b off bs i d : in_buf b off (len bs) = true ->
  (i < Z.to_nat off \/ Z.to_nat off + length bs <= i)%nat ->
  nth i (splice b off bs) d = nth i b d.
Proof.
  intros H Hi. destruct (buf_split _ _ _ H) as (pre & mid & post & -> & <- & Hl).
  unfold len in *. rewrite Nat2Z.id in Hi. apply Nat2Z.inj in Hl.
  rewrite splice_app_mid by lia. destruct Hi as [Hi|Hi].
  - now rewrite !app_nth1 by exact Hi.
  - rewrite !(app_nth2 pre), !app_nth2 by lia. f_equal. lia.
Qed.

Lemma firstn_splice b off bs i : 0 <= i <= off -> off <= len b ->
  firstn (Z.to_nat i) (splice b off bs) = firstn (Z.to_nat i) b.
Proof.
  intros. unfold splice, len in *. rewrite firstn_app, firstn_firstn, firstn_length.
  replace (Z.to_nat i - Nat.min (Z.to_nat off) (length b))%nat with 0%nat by lia.
  rewrite Nat.min_l by lia. apply app_nil_r.
Qed.

Lemma skipn_splice b off bs j : 0 <= off <= len b -> off + len bs <= j ->
  skipn (Z.to_nat j) (splice b off bs) = skipn (Z.to_nat j) b.
Proof.
  intros. unfold splice, len in *. rewrite app_assoc, skipn_app.
  rewrite skipn_all2 by (rewrite app_length, firstn_length; lia).
  rewrite app_length, firstn_length, <- (skipn_add b). cbn [app]. f_equal. lia.
Qed.

(* a slice that ends before the spliced bytes or starts behind them; it need
   not lie inside the buffer *)
Lemma slice_splice_disjoint b off bs off' n :
  0 <= off <= len b -> 0 <= off' -> off' + Z.max 0 n <= off \/ off + len bs <= off' ->
  slice (splice b off bs) off' n = slice b off' n.
Proof.
  intros Ho Ho' [Hd|Hd]; unfold slice.
  - replace (Z.to_nat n) with (Z.to_nat (Z.max 0 n)) by lia.
    rewrite !firstn_skipn_comm, <- !Z2Nat.inj_add by lia. f_equal.
    apply (firstn_splice b off bs (off' + Z.max 0 n)); lia.
  - f_equal. apply (skipn_splice b off bs off'); lia.
Qed.

Lemma slice_splice_other b off bs off' n :
  in_buf b off (len bs) = true -> in_buf b off' n = true ->
  off' + n <= off \/ off + len bs <= off' ->
  slice (splice b off bs) off' n = slice b off' n.
Proof.
  intros H1 H2 Hd. apply in_buf_iff in H1. apply in_buf_iff in H2.
  apply slice_splice_disjoint; lia.
Qed.

(* [seg b p x]: the bytes [x] occur in [b] at position [p].  Images of nested
   values are concatenations, so their parts are located with [seg_app]
   instead of re-bracketing [b = pre ++ _ ++ post]. *)
Definition seg (b : list Z) (p : Z) (x : list Z) : Prop :=
  exists pre post, b = pre ++ x ++ post /\ len pre = p.

Lemma seg_mid pre x post : seg (pre ++ x ++ post) (len pre) x.
Proof. now exists pre, post. Qed.

Lemma seg_tail x y : seg (x ++ y) (len x) y.
Proof. exists x, []. now rewrite app_nil_r. Qed.

Lemma seg_pres b pre x post : b = pre ++ x ++ post -> seg b (len pre) x.
Proof. intros ->. apply seg_mid. Qed.

Lemma seg_app b p x y : seg b p (x ++ y) <-> seg b p x /\ seg b (p + len x) y.
Proof.
  split.
  - intros (pre & post & -> & <-). split.
    + exists pre, (y ++ post). now rewrite <- app_assoc.
    + exists (pre ++ x), post. now rewrite len_app, <- !app_assoc.
  - intros [(pre & post & -> & <-) (pre' & post' & E & L)].
    rewrite <- len_app in L. rewrite app_assoc in E.
    apply app_inj_length in E as [<- ->]; [|apply Nat2Z.inj; now symmetry].
    exists pre, post'. now rewrite <- !app_assoc.
Qed.

Lemma seg_sub b p x q y : seg b p x -> seg x q y -> seg b (p + q) y.
Proof.
  intros (pre & post & -> & <-) (pre' & post' & -> & <-).
  exists (pre ++ pre'), (post' ++ post). now rewrite len_app, <- !app_assoc.
Qed.

Lemma seg_bounds b p x : seg b p x -> 0 <= p /\ p + len x <= len b.
Proof. intros (pre & post & -> & <-). rewrite !len_app. unfold len. lia. Qed.

Lemma seg_in_buf b p x : seg b p x -> in_buf b p (len x) = true.
Proof. intros H. apply seg_bounds in H. apply in_buf_iff. unfold len in *. lia. Qed.

Lemma seg_slice b p x : seg b p x -> slice b p (len x) = x.
Proof. intros (pre & post & -> & <-). apply slice_app_mid. Qed.

Lemma seg_iff b p x : seg b p x <-> in_buf b p (len x) = true /\ slice b p (len x) = x.
Proof.
  split; [intros H; split; [now apply seg_in_buf|now apply seg_slice]|].
  intros [H <-]. destruct (buf_split _ _ _ H) as (pre & mid & post & -> & <- & <-).
  rewrite slice_app_mid. apply seg_mid.
Qed.

Lemma seg_in_buf_sub b p x off n : seg b p x -> in_buf x off n = true ->
  in_buf b (p + off) n = true.
Proof. intros (pre & post & -> & <-). apply in_buf_mid. Qed.

Lemma seg_slice_sub b p x off n : seg b p x -> in_buf x off n = true ->
  slice b (p + off) n = slice x off n.
Proof. intros (pre & post & -> & <-). apply slice_mid. Qed.
