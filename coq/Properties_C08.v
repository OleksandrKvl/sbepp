(* Properties_C08.v — C08: sbeppc rejects exactly the schemas that break its
   layout rules.  Only statements closed by [exact]; proofs are in
   ValidateProofs.v and SrcTablesProofs.v, concrete instances in
   ValidateExamples.v. *)
From Coq Require Import ZArith List.
From Sbepp Require Import Rules Validate ValidateProofs.
Local Open Scope Z_scope.

(* the validator (parser checks, SBE validator, C++ name checks, in the code's
   visiting order, with its state) accepts exactly the schemas that satisfy the
   declarative rules *)
Theorem C08_validate_iff_rules : forall s,
  (exists st, validate s = VOk st) <-> rules_ok s = true.
Proof. exact validate_iff_rules. Qed.
Print Assumptions C08_validate_iff_rules.

(* a schema that breaks a rule is rejected with a rule class: never a crash,
   never fuel exhaustion *)
Theorem C08_rejected_has_class : forall s,
  rules_ok s = false -> exists c, validate s = VErr c.
Proof. exact rejected_has_class. Qed.
Print Assumptions C08_rejected_has_class.

(* no accepted schema has overlapping composite members or fields, or members
   outside their composite / block; nothing extends beyond 2^64-1 *)
Theorem C08_accepted_no_overlap : forall s,
  rules_ok s = true ->
  (forall n o els, In (EComposite n o els) (all_elements (sc_types s)) ->
     exists items, items_of (sc_types s) els = Some items /\
                   size_of (sc_types s) (EComposite n o els) = Some (end_of (rev items)) /\
                   disjoint_layout (assign 0 items) (end_of (rev items)) /\
                   end_of (rev items) <= max_u64) /\
  (forall fs bl, In (fs, bl) (schema_levels s) -> level_layout_ok (sc_types s) fs bl).
Proof. exact accepted_no_overlap. Qed.
Print Assumptions C08_accepted_no_overlap.

From Sbepp Require Import SrcTables SrcTablesProofs.

(* the keyword list the validator consults, regenerated from
   sbe_schema_cpp_validator.hpp on every run, is the list of the rules model *)
Theorem C08_source_keyword_list_is_the_modelled_one : stmt_src_keywords.
Proof. exact src_keywords. Qed.
Print Assumptions C08_source_keyword_list_is_the_modelled_one.
