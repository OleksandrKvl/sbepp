(* ListFacts.v — facts about lists that Coq 8.16's standard library lacks, and
   corollaries of library lemmas in the form in which the proofs use them. *)
From Coq Require Import List Bool PeanoNat.
Import ListNotations.

Lemma skipn_add {A} (l : list A) : forall a c, skipn (a + c) l = skipn c (skipn a l).
Proof. induction l as [|x l IH]; intros [|a] c; cbn; rewrite ?skipn_nil; auto. Qed.

Lemma firstn_add {A} (l : list A) : forall a c,
  firstn (a + c) l = firstn a l ++ firstn c (skipn a l).
Proof.
  induction l as [|x l IH]; intros [|a] c; cbn; rewrite ?firstn_nil; f_equal; auto.
Qed.

Lemma firstn_app_le {A} (l1 l2 : list A) n : n <= length l1 ->
  firstn n (l1 ++ l2) = firstn n l1.
Proof. intros H. rewrite firstn_app, (proj2 (Nat.sub_0_le _ _) H). apply app_nil_r. Qed.

Lemma skipn_app_le {A} (l1 l2 : list A) n : n <= length l1 ->
  skipn n (l1 ++ l2) = skipn n l1 ++ l2.
Proof. intros H. rewrite skipn_app, (proj2 (Nat.sub_0_le _ _) H). reflexivity. Qed.

Lemma skipn_app_2 {A} (l1 l2 : list A) n : skipn (length l1 + n) (l1 ++ l2) = skipn n l2.
Proof. induction l1 as [|x l1 IH]; [reflexivity|exact IH]. Qed.

Lemma app_inj_length {A} (a c b d : list A) :
  a ++ b = c ++ d -> length a = length c -> a = c /\ b = d.
Proof.
  revert c. induction a as [|x a IH]; intros [|y c] E L; try discriminate; [now split|].
  injection E as -> E. injection L as L. destruct (IH c E L) as [-> ->]. now split.
Qed.

Lemma nth_firstn_lt {A} (l : list A) n i d : i < n -> nth i (firstn n l) d = nth i l d.
Proof.
  revert n i. induction l as [|x l IH]; intros n i Hi.
  - now rewrite firstn_nil.
  - destruct n as [|n]; [inversion Hi|]. destruct i as [|i]; [reflexivity|].
    cbn. apply IH, le_S_n, Hi.
Qed.

Lemma nth_skipn {A} n (l : list A) i d : nth i (skipn n l) d = nth (n + i) l d.
Proof.
  revert l. induction n as [|n IH]; intros l; [reflexivity|].
  destruct l as [|x l]; cbn; [destruct i; reflexivity|apply IH].
Qed.

Lemma NoDup_app' {A} (l l' : list A) :
  NoDup l -> NoDup l' -> (forall x, In x l -> ~ In x l') -> NoDup (l ++ l').
Proof.
  induction l as [|a l IH]; intros H1 H2 H3; [exact H2|]. cbn. inversion H1; subst.
  constructor.
  - rewrite in_app_iff. intros [H|H]; [contradiction|]. apply (H3 a); [left; reflexivity|exact H].
  - apply IH; auto. intros x Hx. apply H3. right. exact Hx.
Qed.

Lemma NoDup_map_unique {A B} (f : A -> B) l a b :
  NoDup (map f l) -> In a l -> In b l -> f a = f b -> a = b.
Proof.
  induction l as [|x l IH]; simpl; [tauto|]. intros ND Ha Hb E. inversion ND; subst.
  destruct Ha as [<-|Ha], Hb as [<-|Hb]; auto.
  - exfalso. apply H1. rewrite E. apply in_map; auto.
  - exfalso. apply H1. rewrite <- E. apply in_map; auto.
Qed.

Lemma NoDup_map_finer {A B C} (f : A -> B) (g : A -> C) l :
  (forall x y, g x = g y -> f x = f y) -> NoDup (map f l) -> NoDup (map g l).
Proof.
  intros Hinj. induction l as [|a l IH]; simpl; intro H; [constructor|].
  inversion H; subst. constructor; [|now apply IH].
  rewrite in_map_iff. intros [y [E Hy]]. apply H2.
  rewrite in_map_iff. exists y. split; [|exact Hy]. now apply Hinj.
Qed.

Lemma NoDup_snoc {A} (l : list A) x : NoDup l -> ~ In x l -> NoDup (l ++ [x]).
Proof. intros H Hx. apply (NoDup_Add (Add_app x l [])). rewrite app_nil_r. now split. Qed.

Lemma filter_rev {A} (f : A -> bool) l : filter f (rev l) = rev (filter f l).
Proof.
  induction l as [|a l IH]; [reflexivity|]. cbn [rev filter]. rewrite filter_app, IH. cbn [filter].
  destruct (f a); [reflexivity|apply app_nil_r].
Qed.

Lemma fold_left_inv {S A} (P : S -> Prop) (f : S -> A -> S) :
  (forall s a, P s -> P (f s a)) -> forall l s, P s -> P (fold_left f l s).
Proof. intros H. induction l as [|a l IH]; intros s Hs; [exact Hs|]. apply IH, H, Hs. Qed.

Lemma fold_left_prepends {S A B} (f : S -> A -> S) (g : A -> B) (nm : S -> list B) :
  (forall s a, nm (f s a) = g a :: nm s) ->
  forall l s, rev (nm (fold_left f l s)) = rev (nm s) ++ map g l.
Proof.
  intros H. induction l as [|a l IH]; intros s; [symmetry; apply app_nil_r|].
  cbn [fold_left map]. rewrite IH, H. cbn [rev]. rewrite <- app_assoc. reflexivity.
Qed.

Lemma in_flat_map_intro {A B} (f : A -> list B) l x y :
  In x l -> In y (f x) -> In y (flat_map f l).
Proof. intros Hx Hy. apply in_flat_map. exists x. split; assumption. Qed.

Lemma existsb_eqb_In {A} (eqb : A -> A -> bool) x l :
  (forall a b, eqb a b = true <-> a = b) -> existsb (eqb x) l = true <-> In x l.
Proof.
  intros Heq. rewrite existsb_exists. split.
  - intros (y & Hy & E). apply Heq in E. subst. exact Hy.
  - intros H. exists x. split; [exact H|apply Heq; reflexivity].
Qed.

Lemma forallb_map {A B} (g : A -> B) (q : B -> bool) l :
  forallb q (map g l) = forallb (fun a => q (g a)) l.
Proof. induction l; cbn; congruence. Qed.

Lemma forallb_ext {A} (p q : A -> bool) l :
  (forall x, In x l -> p x = q x) -> forallb p l = forallb q l.
Proof.
  induction l as [|x l IH]; intros H; cbn; [reflexivity|].
  rewrite (H x (or_introl eq_refl)), IH; [reflexivity | intros y Hy; apply H; right; exact Hy].
Qed.

Lemma forallb_andb {A} (P Q : A -> bool) l :
  forallb (fun x => P x && Q x) l = forallb P l && forallb Q l.
Proof.
  induction l as [|x l IH]; simpl; [reflexivity|]. rewrite IH.
  destruct (P x), (Q x), (forallb P l); reflexivity.
Qed.

Lemma forallb_flat_map {A B} (f : A -> list B) (P : B -> bool) l :
  forallb P (flat_map f l) = forallb (fun x => forallb P (f x)) l.
Proof. induction l as [|x l IH]; simpl; [|rewrite forallb_app, IH]; reflexivity. Qed.
