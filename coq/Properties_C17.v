(* Properties_C17.v — C17: header fillers.  Statements only; proofs are in
   LayoutProofs.v, FillProofs.v and CompileProofs.v. *)
From Coq Require Import ZArith List.
From Sbepp Require Import CInt Bytes BytesFacts Msg Layout Wire MsgSpec LayoutProofs.
Import ListNotations.
Local Open Scope Z_scope.

(* header / dimension composite members are laid out by the SBE rule and stay
   inside the composite, whatever their order, custom offsets or extra members *)
Theorem C17_header_members_in_order : stmt_member_offsets_in_order.
Proof. exact member_offsets_in_order. Qed.
Print Assumptions C17_header_members_in_order.

From Sbepp Require Import Cursor CursorSpec Checked ScriptSpec FillProofs.

(* the filler (the generated sequence of member assignments) writes exactly the
   listed members into the header bytes and nothing else *)
Theorem C17_filler_is_put_fills_on_header : stmt_do_fills_spec.
Proof. exact do_fills_spec. Qed.
Print Assumptions C17_filler_is_put_fills_on_header.

(* no byte outside the header changes *)
Theorem C17_filler_frame : stmt_do_fills_frame.
Proof. exact do_fills_frame. Qed.
Print Assumptions C17_filler_frame.

(* afterwards every filled member reads back as the schema's value (schemaId,
   templateId, version, compiled blockLength, numInGroup argument, counters) *)
Theorem C17_filled_members_hold_schema_values : stmt_do_fills_values.
Proof. exact do_fills_values. Qed.
Print Assumptions C17_filled_members_hold_schema_values.

From Sbepp Require Import Compile CompileSpec CompileProofs.

(* for every header composite the compiled filler assignments stay inside the
   header and target unsigned members *)
Theorem C17_compiled_fills_inside_header : stmt_compile_fills_inside.
Proof. exact compile_fills_inside. Qed.
Print Assumptions C17_compiled_fills_inside_header.
