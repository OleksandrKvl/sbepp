(* CursorProofs.v — proofs of the statements of CursorSpec.v.

   Single calls: one lemma per accessor kind for all five wrappers ([cur_field_ok],
   [cur_group_ok], [cur_data_ok]).  C05, the generated size_bytes trait equals the
   image length ([trait_size_is_image_length]): induction over the group table with
   all instances of a level summed at once ([trait_P], with the [sumf] calculus).
   Navigation at any depth: [resolve_seg] follows a path through the image by
   [seg]ments.  Complete traversal ([trav_message_enc'], ['']): mutual induction over
   the value tree ([T_level], [T_groups], [T_entries]).  The tail of the file is what
   CursorRangeProofs and CursorStopProofs need beyond that. *)
From Coq Require Import ZArith List Bool Lia.
From Sbepp Require Import CInt CIntFacts Bytes BytesFacts Msg Layout Wire MsgSpec MsgProofs
  Cursor SizeCheck CursorSpec CursorScript CursorRange.
Import ListNotations.
Local Open Scope Z_scope.


Lemma chk_size_le a : 0 <= ca_size a -> 0 <= chk_size a <= ca_size a.
Proof. unfold chk_size. destruct (ca_view a); lia. Qed.

(* the wrappers that test the cursor ask nothing of the start of the view, the
   init wrappers nothing of the cursor *)
Lemma cur_field_ok w v a c :
  lv_end v < 2 ^ 64 -> 0 <= ca_size a -> lv_start v + ca_abs a + ca_size a <= lv_end v ->
  (if is_init w then 0 <= lv_start v /\ 0 <= ca_abs a
   else 0 <= c /\ 0 <= ca_rel a /\ c = required_pos v a) ->
  cur_field w v a c
  = COk (lv_start v + ca_abs a)
        (match w with
         | WPlain | WSkip | WInit => after_field v a
         | WDontMove => c
         | WInitDontMove => required_pos v a
         end).
Proof.
  unfold required_pos, after_field. intros Hlt Hsz Hfit Hw.
  pose proof (chk_size_le a Hsz) as Hchk.
  destruct w; cbn [is_init] in Hw; unfold cur_field.
  2,3: rewrite size_check_complete by lia; reflexivity. (* WInit, WInitDontMove *)
  all: destruct Hw as (Hc & Hrel & ->);
    replace (lv_start v + ca_abs a - ca_rel a + ca_rel a) with (lv_start v + ca_abs a) by lia;
    rewrite Z.eqb_refl, size_check_complete by lia; reflexivity.
Qed.

Theorem cur_field_at_required : stmt_cur_field_at_required.
Proof.
  unfold stmt_cur_field_at_required, view_in_buffer.
  intros v a c (Hc & Hs & He) Hrel Hsz Hreq Hfit.
  repeat split; (apply cur_field_ok; [exact He|exact Hsz|exact Hfit|cbn [is_init]; lia]).
Qed.
Print Assumptions cur_field_at_required.

Theorem cur_field_init : stmt_cur_field_init.
Proof.
  unfold stmt_cur_field_init, view_in_buffer.
  intros v a c (Hc & Hs & He) Habs Hsz Hfit.
  split; (apply cur_field_ok; [exact He|exact Hsz|exact Hfit|cbn [is_init]; lia]).
Qed.
Print Assumptions cur_field_init.

Theorem cur_field_misplaced_reported : stmt_cur_field_misplaced_reported.
Proof.
  unfold stmt_cur_field_misplaced_reported, required_pos. intros w v a c Hw Hne.
  assert (Hplaced : (lv_start v + ca_abs a =? c + ca_rel a) = false) by (apply Z.eqb_neq; lia).
  unfold cur_field. destruct Hw as [-> | [-> | ->]]; rewrite Hplaced; reflexivity.
Qed.
Print Assumptions cur_field_misplaced_reported.

Theorem cur_group_misplaced_reported : stmt_cur_group_misplaced_reported.
Proof.
  unfold stmt_cur_group_misplaced_reported. intros w v p dsz gsz c Hw Hne.
  assert (Hp : (p =? c) = false) by (apply Z.eqb_neq; lia).
  unfold cur_group. destruct Hw as [-> | [-> | ->]]; rewrite Hp; reflexivity.
Qed.
Print Assumptions cur_group_misplaced_reported.

Theorem cur_data_misplaced_reported : stmt_cur_data_misplaced_reported.
Proof.
  unfold stmt_cur_data_misplaced_reported. intros w v p dsz c Hw Hne.
  assert (Hp : (p =? c) = false) by (apply Z.eqb_neq; lia).
  unfold cur_data. destruct Hw as [-> | [-> | ->]]; rewrite Hp; reflexivity.
Qed.
Print Assumptions cur_data_misplaced_reported.

Lemma cur_group_ok w first lv a dsz gsz c :
  (first = true -> block_end lv = a) -> (first = false -> is_init w = false -> c = a) ->
  cur_group w first lv (Some a) dsz gsz c
  = match w with
    | WPlain | WInit => COk a (a + dsz)
    | WSkip => match gsz a with Some z => COk a (a + z) | None => COob end
    | WDontMove => COk a (if first then a else c)
    | WInitDontMove => COk a a
    end.
Proof.
  intros Hf Hc. unfold cur_group. destruct first; [rewrite (Hf eq_refl); destruct w; reflexivity|].
  destruct w; cbn [is_init] in Hc; try reflexivity;
    rewrite (Hc eq_refl eq_refl), Z.eqb_refl; reflexivity.
Qed.

Lemma cur_data_ok w first lv a dsz c :
  (first = true -> block_end lv = a) -> (first = false -> is_init w = false -> c = a) ->
  cur_data w first lv (Some a) dsz c
  = match w with
    | WPlain | WSkip | WInit => match dsz a with Some z => COk a (a + z) | None => COob end
    | WDontMove => COk a (if first then a else c)
    | WInitDontMove => COk a a
    end.
Proof.
  intros Hf Hc. unfold cur_data. destruct first; [rewrite (Hf eq_refl); destruct w; reflexivity|].
  destruct w; cbn [is_init] in Hc; try reflexivity;
    rewrite (Hc eq_refl eq_refl), Z.eqb_refl; reflexivity.
Qed.

Theorem cur_group_equiv : stmt_cur_group_equiv.
Proof.
  unfold stmt_cur_group_equiv. intros w first v p dsz gsz c Hfirst Hnot Hskip.
  rewrite (cur_group_ok w first v p dsz gsz c (fun H => eq_sym (Hfirst H)) (fun H _ => Hnot H)).
  destruct w.
  5: destruct (Hskip eq_refl) as [z Hz]; rewrite Hz.
  all: eexists; split; [reflexivity|].
  (* of the three clauses only the one that names [w] has a premise that can hold *)
  all: repeat split; intros H; try discriminate H; try (destruct H as [H|H]; discriminate H).
  - destruct first; [reflexivity|exact (Hnot eq_refl)].
  - f_equal. lia.
Qed.
Print Assumptions cur_group_equiv.

Scheme level_mind := Induction for level Sort Prop
  with groups_mind := Induction for groups Sort Prop.
Combined Scheme level_groups_ind from level_mind, groups_mind.

Fixpoint sumf {A} (f : A -> Z) (l : list A) : Z :=
  match l with [] => 0 | x :: r => f x + sumf f r end.

Lemma sumf_app {A} (f : A -> Z) l1 l2 : sumf f (l1 ++ l2) = sumf f l1 + sumf f l2.
Proof. induction l1 as [|x l1 IH]; cbn [sumf app]; lia. Qed.

Lemma sumf_flat_map {A B} (f : B -> Z) (g : A -> list B) l :
  sumf f (flat_map g l) = sumf (fun x => sumf f (g x)) l.
Proof. induction l as [|x l IH]; cbn [sumf flat_map]; [reflexivity|]. rewrite sumf_app, IH. reflexivity. Qed.

Lemma sumf_ext_in {A} (f g : A -> Z) l : (forall x, In x l -> f x = g x) -> sumf f l = sumf g l.
Proof.
  induction l as [|x l IH]; intros H; cbn [sumf]; [reflexivity|].
  rewrite (H x) by (left; reflexivity). rewrite IH; [reflexivity|].
  intros y Hy. apply H. right. exact Hy.
Qed.

Lemma sumf_add {A} (f g : A -> Z) l : sumf (fun x => f x + g x) l = sumf f l + sumf g l.
Proof. induction l as [|x l IH]; cbn [sumf]; lia. Qed.

Lemma sumf_const {A} (c : Z) (l : list A) : sumf (fun _ => c) l = Z.of_nat (length l) * c.
Proof. induction l as [|x l IH]; cbn [sumf length]; lia. Qed.

Lemma length_flat_map_sumf {A B} (g : A -> list B) l :
  Z.of_nat (length (flat_map g l)) = sumf (fun x => Z.of_nat (length (g x))) l.
Proof.
  induction l as [|x l IH]; cbn [sumf flat_map]; [reflexivity|].
  rewrite app_length, Nat2Z.inj_add, IH. reflexivity.
Qed.

Fixpoint vg_drop (k : nat) (vgs : vgroups) : vgroups :=
  match k with
  | O => vgs
  | S k' => match vgs with VGNil => VGNil | VGCons _ _ r => vg_drop k' r end
  end.

Lemma vg_drop_cons : forall k vgs bg es vrest,
  vg_drop k vgs = VGCons bg es vrest ->
  vgroups_nth vgs k = Some (bg, es) /\ vg_drop (S k) vgs = vrest.
Proof.
  induction k as [|k IH]; intros [|bg0 es0 r] bg es vrest H; try discriminate H.
  - injection H as -> -> ->. split; reflexivity.
  - exact (IH r bg es vrest H).
Qed.

Definition pay_total (vds : list (list Z)) : Z := fold_right (fun p acc => len p + acc) 0 vds.

Lemma len_enc_datas be : forall ds vds, datas_fit ds vds ->
  len (enc_datas be ds vds) = prefixes_size ds + pay_total vds.
Proof.
  induction ds as [|t ds IH]; intros vds Hfit.
  - destruct vds; [reflexivity|contradiction].
  - destruct vds as [|p vds]; [contradiction|].
    cbn [datas_fit] in Hfit. destruct Hfit as (_ & _ & Hrest).
    cbn [enc_datas prefixes_size pay_total fold_right].
    rewrite !len_app, len_enc_tw, (IH vds Hrest). unfold pay_total. lia.
Qed.

Lemma len_enc_entries_sumf be l es :
  len (enc_entries be l es) = sumf (fun e => len (enc_level be l e)) (ventries_list es).
Proof.
  induction es as [|e r IH]; [reflexivity|].
  rewrite enc_entries_cons, len_app, IH. reflexivity.
Qed.

Lemma data_total_es_sumf es : data_total_es es = sumf data_total (ventries_list es).
Proof.
  induction es as [|e r IH]; [reflexivity|].
  cbn [data_total_es ventries_list sumf]. rewrite IH. reflexivity.
Qed.

Lemma data_total_eq block vgs vds :
  data_total (VLevel block vgs vds) = pay_total vds + data_total_gs vgs.
Proof. reflexivity. Qed.

Lemma ecount_length es : ecount es = Z.of_nat (length (ventries_list es)).
Proof.
  induction es as [|e r IH]; [reflexivity|].
  cbn [ecount ventries_list length]. rewrite IH. lia.
Qed.

(* a predicate [Q] on entry lists that is a conjunction of [P] over the entries (as
   [wf_entries], [fields_fit_es], ... are by definition: the first hypothesis is then
   [fun _ _ H => H]) gives [P] of every entry *)
Lemma ventries_in (P : vlevel -> Prop) (Q : ventries -> Prop) :
  (forall e r, Q (VECons e r) -> P e /\ Q r) ->
  forall es e, Q es -> In e (ventries_list es) -> P e.
Proof.
  intros HQ. induction es as [|e0 r IH]; intros e H Hin; [contradiction|].
  destruct (HQ _ _ H) as [H1 H2]. destruct Hin as [<-|Hin]; [exact H1|exact (IH e H2 Hin)].
Qed.

Lemma ventries_nth_in : forall es i e, ventries_nth es i = Some e -> In e (ventries_list es).
Proof.
  induction es as [|e0 r IH]; intros [|i] e H; cbn [ventries_nth] in H; try discriminate.
  - injection H as <-. left. reflexivity.
  - right. exact (IH i e H).
Qed.

Lemma compiled_blocks_parts cbl l v : compiled_blocks cbl l v ->
  len (vblock v) = cbl /\ compiled_blocks_gs (level_groups l) (vlevel_groups v).
Proof. destruct v; intros H; exact H. Qed.

Lemma data_total_parts v : data_total v = pay_total (vlevel_datas v) + data_total_gs (vlevel_groups v).
Proof. destruct v; reflexivity. Qed.

Lemma compiled_blocks_gs_cons d cbl l rest bg es vrest :
  compiled_blocks_gs (GCons d cbl l rest) (VGCons bg es vrest) =
  (compiled_blocks_es cbl l es /\ compiled_blocks_gs rest vrest).
Proof. reflexivity. Qed.

Lemma trait_groups_cons d cbl l rest n cs :
  trait_groups (GCons d cbl l rest) (n :: cs) =
  (n * (cbl + dims_size (level_groups l) + prefixes_size (level_datas l))
   + fst (trait_groups (level_groups l) cs)
   + fst (trait_groups rest (snd (trait_groups (level_groups l) cs))),
   snd (trait_groups rest (snd (trait_groups (level_groups l) cs)))).
Proof.
  cbn [trait_groups].
  destruct (trait_groups (level_groups l) cs) as [sub cs1]. cbn [fst snd].
  destruct (trait_groups rest cs1) as [r cs2]. reflexivity.
Qed.

(* The traits take ONE count per group of the table, the total over all entries of the
   enclosing group, so the induction runs over [gs] with all instances [parents] of
   the enclosing level at once (the theorem: [parents = [v]], [k = 0]).  [gs] is the
   tail from index [k] of that level's groups, [vg_drop k] each parent's values for it;
   [tail] the counts of whatever follows in pre-order, handed back untouched. *)
Definition trait_P (gs : groups) : Prop :=
  forall be k parents tail,
    (forall p, In p parents ->
       wf_groups be gs (vg_drop k (vlevel_groups p)) /\
       compiled_blocks_gs gs (vg_drop k (vlevel_groups p))) ->
    snd (trait_groups gs (counts_gs gs k parents ++ tail)) = tail /\
    sumf (fun p => len (enc_groups be gs (vg_drop k (vlevel_groups p)))) parents
    = Z.of_nat (length parents) * dims_size gs
      + fst (trait_groups gs (counts_gs gs k parents ++ tail))
      + sumf (fun p => data_total_gs (vg_drop k (vlevel_groups p))) parents.

Definition inst_of (k : nat) (p : vlevel) : list vlevel :=
  match vgroups_nth (vlevel_groups p) k with
  | Some (_, es) => ventries_list es
  | None => []
  end.

Lemma child_instances_eq k parents : child_instances k parents = flat_map (inst_of k) parents.
Proof. reflexivity. Qed.

Lemma trait_P_nil : trait_P GNil.
Proof.
  intros be k parents tail Hall. cbn [counts_gs trait_groups app fst snd dims_size].
  split; [reflexivity|].
  rewrite (sumf_ext_in _ (fun _ => 0) parents).
  2:{ intros p _. rewrite enc_groups_gnil. reflexivity. }
  rewrite (sumf_ext_in (fun p => data_total_gs _) (fun _ => 0) parents).
  2:{ intros p Hp. destruct (Hall p Hp) as [Hw _].
      destruct (vg_drop k (vlevel_groups p)); [reflexivity|contradiction]. }
  rewrite !sumf_const. lia.
Qed.

Lemma len_enc_level_compiled be cbl l e : wf_level be l e -> compiled_blocks cbl l e ->
  len (enc_level be l e)
  = cbl + prefixes_size (level_datas l) + pay_total (vlevel_datas e)
    + len (enc_groups be (level_groups l) (vlevel_groups e)).
Proof.
  intros Hw Hc. apply wf_level_parts in Hw. apply compiled_blocks_parts in Hc.
  rewrite enc_level_parts, !len_app, (proj1 Hc), (len_enc_datas be _ _ (proj2 Hw)). lia.
Qed.

Lemma len_enc_groups_cons be d cbl l rest bg es vrest :
  wf_groups be (GCons d cbl l rest) (VGCons bg es vrest) ->
  len (enc_groups be (GCons d cbl l rest) (VGCons bg es vrest))
  = d_size d + len (enc_entries be l es) + len (enc_groups be rest vrest).
Proof.
  rewrite wf_groups_cons, enc_groups_cons. intros (Hd & Hlen & _).
  rewrite !len_app, len_dim_bytes by assumption. lia.
Qed.

Lemma parent_group be d cbl l rest k p :
  wf_groups be (GCons d cbl l rest) (vg_drop k (vlevel_groups p)) ->
  compiled_blocks_gs (GCons d cbl l rest) (vg_drop k (vlevel_groups p)) ->
  (wf_groups be rest (vg_drop (S k) (vlevel_groups p)) /\
   compiled_blocks_gs rest (vg_drop (S k) (vlevel_groups p))) /\
  (forall e, In e (inst_of k p) -> wf_level be l e /\ compiled_blocks cbl l e) /\
  len (enc_groups be (GCons d cbl l rest) (vg_drop k (vlevel_groups p)))
  = d_size d + sumf (fun e => len (enc_level be l e)) (inst_of k p)
    + len (enc_groups be rest (vg_drop (S k) (vlevel_groups p))) /\
  data_total_gs (vg_drop k (vlevel_groups p))
  = sumf data_total (inst_of k p) + data_total_gs (vg_drop (S k) (vlevel_groups p)).
Proof.
  intros Hw Hc.
  destruct (vg_drop k (vlevel_groups p)) as [|bg es vrest] eqn:Hd; [contradiction|].
  destruct (vg_drop_cons _ _ _ _ _ Hd) as [Hnth ->]. unfold inst_of. rewrite Hnth.
  rewrite wf_groups_cons in Hw. destruct Hw as (Hwd & Hlen & _ & _ & _ & _ & _ & Hwe & Hwr).
  destruct Hc as [Hce Hcr].
  split; [split; assumption|]. split; [|split].
  - intros e He. split.
    + exact (ventries_in (wf_level be l) (wf_entries be l) (fun _ _ H => H) es e Hwe He).
    + exact (ventries_in (compiled_blocks cbl l) (compiled_blocks_es cbl l) (fun _ _ H => H)
               es e Hce He).
  - rewrite enc_groups_cons, !len_app, len_dim_bytes, len_enc_entries_sumf by assumption. lia.
  - cbn [data_total_gs]. now rewrite data_total_es_sumf.
Qed.

Lemma trait_P_cons d cbl l rest :
  trait_P (level_groups l) -> trait_P rest -> trait_P (GCons d cbl l rest).
Proof.
  intros IHl IHr be k parents tail Hall.
  assert (Hp := fun p Hp =>
    parent_group be d cbl l rest k p (proj1 (Hall p Hp)) (proj2 (Hall p Hp))).
  set (inst := child_instances k parents).
  assert (Hinst : forall e, In e inst -> wf_level be l e /\ compiled_blocks cbl l e).
  { intros e He. apply in_flat_map in He. destruct He as (p & Hp' & He).
    exact (proj1 (proj2 (Hp p Hp')) e He). }
  cbn [counts_gs]. fold inst. rewrite <- app_assoc, <- app_comm_cons.
  set (tail1 := counts_gs rest (S k) parents ++ tail).
  destruct (IHl be 0%nat inst tail1) as [IHl1 IHl2].
  { intros e He. destruct (Hinst e He) as [H1 H2].
    split; [apply (wf_level_parts _ _ _ H1)|apply (compiled_blocks_parts _ _ _ H2)]. }
  destruct (IHr be (S k) parents tail (fun p Hp' => proj1 (Hp p Hp'))) as [IHr1 IHr2].
  fold tail1 in IHr1, IHr2. cbn [vg_drop] in IHl2.
  rewrite trait_groups_cons. cbn [fst snd]. rewrite IHl1. split; [exact IHr1|].
  (* per parent: dimension + instances + later groups; per instance: block +
     data + its own groups; the two inner sums are the hypotheses *)
  rewrite (sumf_ext_in _ _ parents (fun p Hp' => proj1 (proj2 (proj2 (Hp p Hp'))))).
  rewrite (sumf_ext_in (fun p => data_total_gs _) _ parents
             (fun p Hp' => proj2 (proj2 (proj2 (Hp p Hp'))))).
  rewrite !sumf_add, sumf_const, <- !sumf_flat_map, IHr2.
  rewrite <- child_instances_eq. fold inst.
  rewrite (sumf_ext_in _ _ inst (fun e He =>
             len_enc_level_compiled be cbl l e (proj1 (Hinst e He)) (proj2 (Hinst e He)))).
  rewrite (sumf_ext_in data_total _ inst (fun e _ => data_total_parts e)).
  rewrite !sumf_add, !sumf_const, IHl2. cbn [dims_size]. lia.
Qed.

Lemma trait_P_all : forall gs, trait_P gs.
Proof.
  apply (groups_mind (fun l => trait_P (level_groups l)) trait_P).
  - intros fs gs IH ds. exact IH.
  - exact trait_P_nil.
  - intros d cbl l IHl rest IHr. apply trait_P_cons; assumption.
Qed.

Theorem trait_size_is_image_length : stmt_trait_size_is_image_length.
Proof.
  unfold stmt_trait_size_is_image_length. intros be m hdrbg v Hwf Hcb.
  pose proof (msg_wf_level be m hdrbg v Hwf) as Hwl.
  destruct (trait_P_all (level_groups (m_level m)) be 0%nat [v] []) as [_ H].
  { intros p [<-|[]]. cbn [vg_drop].
    split; [apply (wf_level_parts _ _ _ Hwl)|apply (compiled_blocks_parts _ _ _ Hcb)]. }
  rewrite app_nil_r in H. cbn [sumf vg_drop length] in H.
  unfold trait_size, enc_message.
  rewrite len_app, (len_msg_hdr be m hdrbg v Hwf), (len_enc_level_compiled be _ _ _ Hwl Hcb),
    data_total_parts. lia.
Qed.
Print Assumptions trait_size_is_image_length.

(* a nested entry occupies at least one byte; the entries of a flat group may be empty *)
Lemma entries_fuel {be l es b pos fuel} :
  wf_entries be l es -> seg b pos (enc_entries be l es) -> len b <= Z.of_nat fuel ->
  (is_flat l = true -> ecount es <= Z.of_nat fuel) -> ecount es <= Z.of_nat fuel.
Proof.
  intros Hwe Hs Hfuel Hflat. destruct (is_flat l) eqn:Hfl; [exact (Hflat eq_refl)|].
  exact (proj2 (fuel_entries_seg be l es b pos fuel Hwe Hs Hfuel) Hfl).
Qed.

Lemma group_at_inv be b d s g : group_at be b d s = Some g ->
  rd be b (s + d_bl_off d) (d_bl_t d) = Some (gv_bl g) /\
  rd be b (s + d_n_off d) (d_n_t d) = Some (gv_n g) /\ gv_pos g = s.
Proof.
  unfold group_at.
  destruct (rd be b (s + d_bl_off d) (d_bl_t d)) as [bl|]; [|discriminate].
  destruct (rd be b (s + d_n_off d) (d_n_t d)) as [n|]; [|discriminate].
  intros [= <-]. repeat split; reflexivity.
Qed.

Lemma group_end_single be b fuel d cbl l rest bg es vrest pos :
  wf_groups be (GCons d cbl l rest) (VGCons bg es vrest) -> len b <= Z.of_nat fuel ->
  seg b pos (enc_groups be (GCons d cbl l rest) (VGCons bg es vrest)) ->
  groups_end be b fuel (GCons d cbl l GNil) pos = Some (pos + d_size d + len (enc_entries be l es)).
Proof.
  intros Hwf Hfuel Hs. pose proof (wf_groups_single _ _ _ _ _ _ _ _ Hwf) as Hwf1.
  rewrite enc_groups_cons_single in Hs. apply seg_app in Hs as [Hs1 _].
  rewrite (groups_end_seg_b be _ _ b _ fuel Hwf1 Hfuel Hs1),
    (len_enc_groups_cons _ _ _ _ _ _ _ _ Hwf1), enc_groups_gnil, len_nil.
  f_equal. lia.
Qed.

Lemma nth_group_pos_groups_nth be b fuel : forall gs k pos p d cbl sub,
  nth_group_pos be b fuel gs k pos = Some (p, d, cbl, sub) -> groups_nth gs k = Some (d, cbl, sub).
Proof.
  induction gs as [|d0 c0 l0 rest IH]; intros [|k] pos p d cbl sub H;
    cbn [nth_group_pos groups_nth] in *; try discriminate.
  - now injection H as _ -> -> ->.
  - apply obind_some in H. destruct H as (q & _ & H). exact (IH _ _ _ _ _ _ H).
Qed.

Lemma wf_groups_nth be : forall gs vgs k x,
  wf_groups be gs vgs -> groups_nth gs k = Some x -> exists y, vgroups_nth vgs k = Some y.
Proof.
  induction gs as [|d0 cbl0 l0 rest IH]; intros [|bg0 es0 vrest] k x Hwf Hg; try contradiction;
    [destruct k; discriminate|].
  destruct k as [|k]; cbn [groups_nth vgroups_nth] in *; [eauto|].
  rewrite wf_groups_cons in Hwf. exact (IH vrest k x (proj2 (proj2 (proj2 (proj2 (proj2
    (proj2 (proj2 (proj2 Hwf)))))))) Hg).
Qed.

Lemma nth_group_at be b fuel k gs vgs pos bg es d cbl sub :
  wf_groups be gs vgs -> len b <= Z.of_nat fuel -> seg b pos (enc_groups be gs vgs) ->
  vgroups_nth vgs k = Some (bg, es) -> groups_nth gs k = Some (d, cbl, sub) ->
  nth_group_pos be b fuel gs k pos = Some (pos + groups_prefix_len be gs vgs k, d, cbl, sub) /\
  wf_groups be (GCons d cbl sub GNil) (VGCons bg es VGNil) /\
  seg b (pos + groups_prefix_len be gs vgs k)
      (enc_groups be (GCons d cbl sub GNil) (VGCons bg es VGNil)).
Proof.
  intros Hwf Hfuel Hs Hnth Hg.
  destruct (nth_group_seg be b fuel k gs vgs _ bg es Hwf Hfuel Hs Hnth)
    as (d' & cbl' & sub' & Hp & Hw & Hs').
  pose proof (nth_group_pos_groups_nth _ _ _ _ _ _ _ _ _ _ Hp) as Hg'.
  rewrite Hg in Hg'. injection Hg' as <- <- <-. exact (conj Hp (conj Hw Hs')).
Qed.

Lemma nth_entry_seg be l bl : forall es i e,
  ventries_nth es i = Some e -> wf_entries be l es -> all_blocks_len es bl ->
  wf_level be l e /\ len (vblock e) = bl /\ Z.of_nat i < ecount es /\
  seg (enc_entries be l es) (entries_prefix_len be l es i) (enc_level be l e).
Proof.
  induction es as [|e0 r IH]; intros i e Hnth; [discriminate|]. intros [Hw0 Hwr] [Hb0 Hbr].
  pose proof (ecount_nonneg r) as Hn0. rewrite enc_entries_cons.
  destruct i as [|i]; cbn [ventries_nth] in Hnth; cbn [ecount entries_prefix_len].
  - injection Hnth as <-. repeat split; [assumption..|lia|]. now exists [], (enc_entries be l r).
  - destruct (IH i e Hnth Hwr Hbr) as (H1 & H2 & H3 & H4).
    repeat split; [assumption..|lia|]. exact (seg_sub _ _ _ _ _ (seg_tail _ _) H4).
Qed.

Lemma entries_prefix_flat be l bl : forall es i e,
  is_flat l = true -> ventries_nth es i = Some e -> all_blocks_len es bl ->
  entries_prefix_len be l es i = Z.of_nat i * bl.
Proof.
  induction es as [|e0 r IH]; intros i e Hfl Hnth Hall; [discriminate|].
  cbn [all_blocks_len] in Hall. destruct Hall as [Hb0 Hbr].
  destruct i as [|i]; cbn [ventries_nth] in Hnth; cbn [entries_prefix_len].
  - reflexivity.
  - rewrite (IH i e Hfl Hnth Hbr), enc_level_flat by exact Hfl. lia.
Qed.

Lemma entries_walk_prefix be b fuel l bl : forall es i e k pos,
  ventries_nth es i = Some e -> wf_entries be l es -> all_blocks_len es bl ->
  len b <= Z.of_nat fuel -> (i <= k)%nat -> seg b pos (enc_entries be l es) ->
  entries_walk be b fuel l bl k (Z.of_nat i) pos = Some (pos + entries_prefix_len be l es i).
Proof.
  induction es as [|e0 r IH]; intros i e k pos Hnth; [discriminate|].
  intros [Hw0 Hwr] [Hb0 Hbr] Hfuel Hk Hs.
  rewrite enc_entries_cons in Hs. apply seg_app in Hs as [Hs0 Hsr].
  destruct i as [|i]; cbn [ventries_nth] in Hnth; cbn [entries_prefix_len].
  - cbn [Z.of_nat]. rewrite entries_walk_0. f_equal. lia.
  - destruct k as [|k]; [lia|].
    rewrite entries_walk_S by lia.
    rewrite <- Hb0, (level_end_seg_b be l e0 b _ fuel Hw0 Hfuel Hs0), Hb0. cbn [obind].
    replace (Z.of_nat (S i) - 1) with (Z.of_nat i) by lia.
    rewrite (IH i e k _ Hnth Hwr Hbr Hfuel ltac:(lia) Hsr). f_equal. lia.
Qed.

Lemma entry_pos_image be b fuel d l es bl pos i e :
  wf_entries be l es -> all_blocks_len es bl -> len b <= Z.of_nat fuel ->
  seg b (pos + d_size d) (enc_entries be l es) -> ventries_nth es i = Some e ->
  entry_pos be b fuel d l {| gv_pos := pos; gv_bl := bl; gv_n := ecount es |} (Z.of_nat i)
  = Some (pos + d_size d + entries_prefix_len be l es i).
Proof.
  intros Hwe Hall Hfuel Hs He.
  destruct (nth_entry_seg be l bl es i e He Hwe Hall) as (_ & _ & Hilt & _).
  unfold entry_pos. cbn [gv_pos gv_bl gv_n].
  replace (Z.of_nat i <? 0) with false by (symmetry; apply Z.ltb_ge; lia).
  replace (ecount es <=? Z.of_nat i) with false by (symmetry; apply Z.leb_gt; lia).
  cbn [orb]. destruct (is_flat l) eqn:Hfl.
  - now rewrite (entries_prefix_flat be l bl es i e Hfl He Hall).
  - apply (entries_walk_prefix be b fuel l bl es i e fuel _ He Hwe Hall Hfuel); [|exact Hs].
    (* a nested entry occupies at least one byte *)
    pose proof (proj2 (fuel_entries_seg be l es b _ fuel Hwe Hs Hfuel) Hfl). lia.
Qed.

Lemma resolve_cons be b fuel k i rest l pos bl :
  resolve be b fuel (SGroup k i :: rest) l pos bl =
  obind (nth_group_pos be b fuel (level_groups l) k (pos + bl)) (fun r =>
    let '(gpos, d, _, sub) := r in
    obind (group_at be b d gpos) (fun g =>
    obind (entry_pos be b fuel d sub g i) (fun epos =>
    resolve be b fuel rest sub epos (gv_bl g)))).
Proof. reflexivity. Qed.

Lemma resolve_seg be b fuel : forall path l v pos l' v' off,
  wf_level be l v -> len b <= Z.of_nat fuel -> seg b pos (enc_level be l v) ->
  vresolve be path l v = Some (l', v', off) ->
  resolve be b fuel path l pos (len (vblock v)) = Some (pos + off, len (vblock v'), l') /\
  wf_level be l' v' /\ seg b (pos + off) (enc_level be l' v').
Proof.
  induction path as [|[k i] rest IH]; intros l v pos l' v' off Hwf Hfuel Hs Hres.
  - injection Hres as <- <- <-. cbn [resolve]. rewrite Z.add_0_r. auto.
  - cbn [vresolve] in Hres.
    destruct (groups_nth (level_groups l) k) as [[[d cbl] sub]|] eqn:Hg; [|discriminate].
    destruct (vgroups_nth (vlevel_groups v) k) as [[bg es]|] eqn:Hvg; [|discriminate].
    destruct (i <? 0) eqn:Hi0; [discriminate|]. apply Z.ltb_ge in Hi0.
    destruct (ventries_nth es (Z.to_nat i)) as [e|] eqn:He; [|discriminate].
    destruct (vresolve be rest sub e) as [[[l'' v''] off']|] eqn:Hsub; [|discriminate].
    injection Hres as -> -> <-.
    destruct (wf_level_parts be l v Hwf) as [Hwg _].
    (* the groups of the level, the k-th group, its entries, entry i *)
    destruct (level_image _ _ _ _ _ Hs) as (_ & HsG & _).
    destruct (nth_group_at be b fuel k _ _ _ bg es d cbl sub Hwg Hfuel HsG Hvg Hg)
      as (Hpos & Hwf1 & Hs1).
    destruct (groups_cons_image be b d cbl sub GNil bg es VGNil _ Hwf1 Hs1)
      as (Hga & Hwe & Hall & HsE & _).
    destruct (nth_entry_seg be sub _ es (Z.to_nat i) e He Hwe Hall) as (Hwfe & Hble & _ & HsI).
    pose proof (entry_pos_image be b fuel d sub es _ _ _ e Hwe Hall Hfuel HsE He) as Hep.
    rewrite Z2Nat.id in Hep by exact Hi0.
    destruct (IH sub e _ l' v' off' Hwfe Hfuel (seg_sub _ _ _ _ _ HsE HsI) Hsub)
      as (Hr & Hwf' & Hs').
    rewrite !Z.add_assoc. split; [|exact (conj Hwf' Hs')].
    rewrite resolve_cons, Hpos. cbn [obind]. rewrite Hga. cbn [obind]. rewrite Hep.
    cbn [obind gv_bl].
    rewrite <- Hble. exact Hr.
Qed.

Lemma msg_resolve_off {be m hdrbg v b pre post path l' v' off} :
  wf_message be m hdrbg v -> b = pre ++ enc_message be m hdrbg v ++ post ->
  vresolve be path (m_level m) v = Some (l', v', off) ->
  wf_level be l' v' /\
  seg b (len pre + m_hdr_size m + off) (enc_level be l' v') /\
  msg_resolve be b m (len pre) path
  = Some (len pre + m_hdr_size m + off, len (vblock v'), l').
Proof.
  intros Hwf Hb Hres.
  destruct (resolve_seg be b (default_fuel b) path (m_level m) v _ l' v' off
              (msg_wf_level be m hdrbg v Hwf) (default_fuel_len b)
              (msg_root_seg be m hdrbg v b pre post Hwf Hb) Hres)
    as (Hr & Hwf' & Hs').
  split; [exact Hwf'|]. split; [exact Hs'|].
  unfold msg_resolve. rewrite (msg_block_length_enc be m hdrbg v b pre post Hwf Hb).
  cbn [obind]. exact Hr.
Qed.

Theorem get_field_any_path_enc : stmt_get_field_any_path_enc.
Proof.
  unfold stmt_get_field_any_path_enc.
  intros be m hdrbg v pre post path k l' v' off f Hwf Hres Hk Ho Hs Hle.
  destruct (msg_resolve_off (pre := pre) (post := post) Hwf eq_refl Hres)
    as (_ & Hs' & Hr).
  eapply get_field_at; [exact Hr|exact Hs'|eassumption..].
Qed.
Print Assumptions get_field_any_path_enc.

Theorem get_data_any_path_enc : stmt_get_data_any_path_enc.
Proof.
  unfold stmt_get_data_any_path_enc.
  intros be m hdrbg v pre post path k l' v' off p Hwf Hres Hnth.
  destruct (msg_resolve_off (pre := pre) (post := post) Hwf eq_refl Hres)
    as (Hwf' & Hs' & Hr).
  eapply get_data_at; [exact Hr|exact Hwf'|exact Hs'|exact Hnth].
Qed.
Print Assumptions get_data_any_path_enc.

(* stmt_trav_message_enc is refuted in CursorCounterexamples.v: it lacks the
   hypothesis [flat_counts_le] below. *)

(* a message without any member has wire blockLength 0.  No theorem assumes it:
   [trav_message] moves the cursor over the block of such a message, as the
   generated visit_children does. *)
Definition empty_root_has_empty_block (m : message) (cl : clevel) (v : vlevel) : Prop :=
  is_empty_level (m_level m) cl = true -> len (vblock v) = 0.

(* every flat group has at most [N] entries.  The entry loop of
   [trav_groups] consumes one unit of fuel per entry, also for flat groups,
   whose entries may occupy 0 bytes *)
Fixpoint flat_counts_le (N : Z) (l : level) (v : vlevel) {struct v} : Prop :=
  match v with
  | VLevel _ vgs _ => flat_counts_le_gs N (level_groups l) vgs
  end
with flat_counts_le_gs (N : Z) (gs : groups) (vgs : vgroups) {struct vgs} : Prop :=
  match vgs, gs with
  | VGCons _ es vrest, GCons _ _ l rest =>
    (is_flat l = true -> ecount es <= N) /\
    flat_counts_le_es N l es /\ flat_counts_le_gs N rest vrest
  | _, _ => True
  end
with flat_counts_le_es (N : Z) (l : level) (es : ventries) {struct es} : Prop :=
  match es with
  | VENil => True
  | VECons e r => flat_counts_le N l e /\ flat_counts_le_es N l r
  end.

Definition stmt_trav_message_enc' : Prop :=
  forall be m cl hdrbg v pre post,
    wf_message be m hdrbg v ->
    wf_clevel (m_hdr_size m) (m_level m) cl ->
    fields_fit (m_level m) v ->
    len (pre ++ enc_message be m hdrbg v ++ post) < 2 ^ 64 ->
    flat_counts_le (Z.of_nat (default_fuel (pre ++ enc_message be m hdrbg v ++ post)))
                   (m_level m) v ->
    trav_message be (pre ++ enc_message be m hdrbg v ++ post) m cl (len pre)
    = COk (ev_level be (m_level m) v (len pre + m_hdr_size m))
          (len pre + len (enc_message be m hdrbg v)).

(* the entry loop of [trav_groups]; defined over section variables, it unfolds
   to the very [fix] inside [trav_groups] *)
Section Entries.
  Variables (be : bool) (b : list Z) (fuel : nat) (l : level) (cl : clevel) (bl lvend : Z).

  Fixpoint trav_entries (j : nat) (n c : Z) (acc : list event) {struct j} : cres (list event) :=
    if n <=? 0 then COk acc c else
    match j with
    | O => COob
    | S j' =>
      let ev := {| lv_start := c; lv_level := c; lv_bl := bl; lv_end := lvend |} in
      let c0 := if is_empty_level l cl then c + bl else c in
      match trav_level be b fuel l cl ev c0 (EEntry c :: acc) with
      | COk acc' c' => trav_entries j' (n - 1) c' acc'
      | CAssert => CAssert
      | COob => COob
      end
    end.
End Entries.

Definition cbind {A B} (R : cres A) (F : A -> Z -> cres B) : cres B :=
  match R with COk a c => F a c | CAssert => CAssert | COob => COob end.

Lemma cbind_ext {A B} (R : cres A) (F G : A -> Z -> cres B) :
  (forall a c, F a c = G a c) -> cbind R F = cbind R G.
Proof. intros H. destruct R; cbn [cbind]; auto. Qed.

Lemma cbind_assoc {A B C} (R : cres A) (F : A -> Z -> cres B) (G : B -> Z -> cres C) :
  cbind (cbind R F) G = cbind R (fun a c => cbind (F a c) G).
Proof. destruct R; reflexivity. Qed.

Lemma trav_level_cbind be b fuel fs gs ds cl v c acc :
  trav_level be b fuel (Level fs gs ds) cl v c acc =
  cbind (trav_fields v (clevel_fields cl) 0 c acc) (fun a1 c1 =>
  cbind (trav_groups be b fuel gs (clevel_groups cl) v 0 true (Some (block_end v)) c1 a1)
        (fun a2 c2 =>
  trav_datas be b v ds 0 (groups_empty gs) (groups_end be b fuel gs (block_end v)) c2 a2)).
Proof. reflexivity. Qed.

Lemma trav_groups_cbind be b fuel d cbl l rest cl crest v k first p c acc :
  trav_groups be b fuel (GCons d cbl l rest) (CGCons cl crest) v k first p c acc =
  match cur_group WPlain first v p (d_size d) (fun _ => None) c with
  | COk s c1 =>
    match rd be b (s + d_bl_off d) (d_bl_t d), rd be b (s + d_n_off d) (d_n_t d) with
    | Some bl, Some n =>
      cbind (trav_entries be b fuel l cl bl (lv_end v) fuel n c1 (EGroup k s n :: acc))
            (fun acc' c' =>
               trav_groups be b fuel rest crest v (S k) false
                 (obind p (fun p0 => groups_end be b fuel (GCons d cbl l GNil) p0)) c' acc')
    | _, _ => COob
    end
  | CAssert => CAssert
  | COob => COob
  end.
Proof. reflexivity. Qed.

Definition entry_view (bl lvend c : Z) : lview :=
  {| lv_start := c; lv_level := c; lv_bl := bl; lv_end := lvend |}.
Definition entry_cursor (l : level) (cl : clevel) (bl c : Z) : Z :=
  if is_empty_level l cl then c + bl else c.

Lemma trav_entries_eq be b fuel l cl bl lvend j n c acc :
  trav_entries be b fuel l cl bl lvend j n c acc =
  if n <=? 0 then COk acc c else
  match j with
  | O => COob
  | S j' =>
    cbind (trav_level be b fuel l cl (entry_view bl lvend c) (entry_cursor l cl bl c)
             (EEntry c :: acc))
          (fun acc' c' => trav_entries be b fuel l cl bl lvend j' (n - 1) c' acc')
  end.
Proof. destruct j; reflexivity. Qed.

Lemma rev_cons_app {A} (x : A) l acc : rev (x :: l) ++ acc = rev l ++ x :: acc.
Proof. cbn [rev]. now rewrite <- app_assoc. Qed.

Lemma trav_fields_ok lv hdr : forall fs al pos k c acc,
  accs_ok hdr pos fs al ->
  Forall (fun f => 0 <= f_off f /\ f_off f + f_size f <= lv_bl lv) fs ->
  lv_start lv + hdr = lv_level lv -> 0 <= lv_level lv -> 0 <= pos ->
  lv_level lv + lv_bl lv <= lv_end lv -> lv_end lv < 2 ^ 64 ->
  (fs <> [] -> c = lv_level lv + pos) ->
  trav_fields lv al k c acc
  = COk (rev (ev_fields fs k (lv_level lv)) ++ acc)
        (match fs with [] => c | _ => block_end lv end).
Proof.
  induction fs as [|f fs IH]; intros al pos k c acc Hacc Hfit Hst Hlv Hpos Hend Hlt Hc.
  - destruct al; [|contradiction]. reflexivity.
  - destruct al as [|a al]; [contradiction|].
    cbn [accs_ok] in Hacc.
    destruct Hacc as (Hrel & Hrel0 & Habs & Hsz & Hsz0 & Hlast & Hrest).
    destruct (Forall_inv Hfit) as [Hf0 Hf1]. pose proof (Forall_inv_tail Hfit) as Hfit'.
    specialize (Hc ltac:(discriminate)).
    cbn [trav_fields].
    rewrite (cur_field_ok WPlain lv a c);
      [| exact Hlt | rewrite Hsz; exact Hsz0 | clear - Habs Hsz Hst Hend Hf1; lia
       | cbn [is_init]; unfold required_pos; clear - Hrel Hrel0 Habs Hst Hlv Hpos Hc; lia].
    unfold after_field. cbn [ev_fields].
    replace (lv_start lv + ca_abs a) with (lv_level lv + f_off f) by (clear - Habs Hst; lia).
    rewrite rev_cons_app.
    destruct fs as [|f2 fs].
    + destruct al; [|contradiction]. rewrite Hlast. reflexivity.
    + rewrite Hlast.
      rewrite (IH al (f_off f + f_size f) (S k) _ _ Hrest Hfit' Hst Hlv (Z.add_nonneg_nonneg _ _ Hf0 Hsz0) Hend Hlt).
      * reflexivity.
      * intros _. clear - Habs Hsz Hst. lia.
Qed.

Section Trav.
  Variables (be : bool) (b : list Z) (fuel : nat).
  Hypothesis Hfuel : len b <= Z.of_nat fuel.
  Hypothesis Hlt : len b < 2 ^ 64.

  Lemma trav_datas_ok lv : forall ds vds pos k first c acc,
    datas_fit ds vds -> seg b pos (enc_datas be ds vds) ->
    (first = true -> block_end lv = pos) -> (first = false -> c = pos) ->
    trav_datas be b lv ds k first (Some pos) c acc
    = COk (rev (ev_datas ds vds k pos) ++ acc)
          (match ds with [] => c | _ => pos + len (enc_datas be ds vds) end).
  Proof.
    induction ds as [|t ds IH]; intros vds pos k first c acc Hfit Hs H1 H2.
    - destruct vds; [|contradiction]. reflexivity.
    - destruct vds as [|p vds]; [contradiction|]. destruct Hfit as (Hu & Hf & Hrest).
      cbn [enc_datas] in Hs. apply seg_app in Hs as [HsL Hs]. apply seg_app in Hs as [_ Hs].
      rewrite len_enc_tw, <- Z.add_assoc in Hs.
      pose proof (seg_rd_enc be b pos t _ HsL Hf) as Hrd.
      assert (Hdsz : data_size_at be b t pos = Some (tbytes t + len p))
        by (unfold data_size_at; now rewrite Hrd).
      cbn [trav_datas]. rewrite (cur_data_ok WPlain first lv pos _ c H1 (fun H _ => H2 H)), Hdsz, Hrd.
      cbn [obind]. rewrite Hdsz. cbn [obind].
      replace (if first then _ else _) with (Some (pos + (tbytes t + len p)))
        by (destruct first; reflexivity).
      rewrite (IH vds _ (S k) false _ _ Hrest Hs) by (discriminate || reflexivity).
      cbn [ev_datas enc_datas]. rewrite rev_cons_app, !len_app, len_enc_tw, Z.add_assoc.
      f_equal. destruct ds; [cbn [enc_datas]; rewrite len_nil|]; lia.
  Qed.

  Let F := Z.of_nat fuel.

  (* The traversal of an image returns the declarative events (latest first) and
     ends at the end of the image.  [hdr]: what precedes the block in the view (the
     message header, 0 for entries).  [c]: the generated constructor of a level
     without members moves the cursor over the block itself ([is_empty_level]).
     [first]: the first group or data member is found from the block end, the others
     from the cursor, which then has to be there. *)
  Definition T_level (v : vlevel) : Prop :=
    forall l cl hdr pos lv c acc,
      wf_level be l v -> wf_clevel hdr l cl -> fields_fit l v -> flat_counts_le F l v ->
      seg b pos (enc_level be l v) ->
      lv_level lv = pos -> lv_start lv + hdr = pos ->
      lv_bl lv = len (vblock v) -> lv_end lv = len b ->
      c = (if is_empty_level l cl then pos + len (vblock v) else pos) ->
      trav_level be b fuel l cl lv c acc
      = COk (rev (ev_level be l v pos) ++ acc) (pos + len (enc_level be l v)).

  Definition T_groups (vgs : vgroups) : Prop :=
    forall gs cgs pos lv k first c acc,
      wf_groups be gs vgs -> wf_cgroups gs cgs -> fields_fit_gs gs vgs ->
      flat_counts_le_gs F gs vgs ->
      seg b pos (enc_groups be gs vgs) ->
      lv_end lv = len b ->
      (first = true -> block_end lv = pos) -> (first = false -> c = pos) ->
      trav_groups be b fuel gs cgs lv k first (Some pos) c acc
      = COk (rev (ev_groups be gs vgs k pos) ++ acc)
            (if groups_empty gs then c else pos + len (enc_groups be gs vgs)).

  Definition T_entries (es : ventries) : Prop :=
    forall l cl pos bl lvend j acc,
      wf_entries be l es -> wf_clevel 0 l cl -> fields_fit_es l es ->
      flat_counts_le_es F l es -> all_blocks_len es bl ->
      seg b pos (enc_entries be l es) ->
      lvend = len b -> ecount es <= Z.of_nat j ->
      trav_entries be b fuel l cl bl lvend j (ecount es) pos acc
      = COk (rev (ev_entries be l es pos) ++ acc) (pos + len (enc_entries be l es)).

  Lemma T_level_step block vgs vds : T_groups vgs -> T_level (VLevel block vgs vds).
  Proof.
    intros IHg l cl hdr pos lv c acc Hwf Hcl Hff Hfc Hs Hlvl Hst Hbl Hend Hc.
    destruct l as [fs gs ds]. destruct cl as [al cgs].
    destruct Hwf as [Hwg Hwd]. destruct Hcl as [Hacc Hcg]. destruct Hff as [Hffs Hffg].
    cbn [flat_counts_le level_groups level_datas level_fields vblock] in *.
    destruct (level_image _ _ _ _ _ Hs) as (HsB & HsG & HsD).
    cbn [level_groups level_datas vblock vlevel_groups vlevel_datas] in HsB, HsG, HsD.
    pose proof (seg_bounds _ _ _ HsB) as [Hpos0 Hin].
    rewrite trav_level_cbind. cbn [clevel_fields clevel_groups].
    (* fields *)
    rewrite (trav_fields_ok lv hdr fs al 0 0%nat c acc Hacc);
      [|rewrite Hbl; exact Hffs|rewrite Hlvl; exact Hst|rewrite Hlvl; exact Hpos0|reflexivity|lia
       |rewrite Hend; exact Hlt|].
    2:{ intros Hne. rewrite Hc, Hlvl. unfold is_empty_level. cbn [clevel_fields].
        destruct fs as [|f fs]; [contradiction|]. destruct al; [contradiction|]. lia. }
    (* groups, then the data after them *)
    assert (Hbe : block_end lv = pos + len block) by (unfold block_end; lia).
    cbn [cbind].
    rewrite Hbe, (IHg gs cgs _ lv 0%nat true _ _ Hwg Hcg Hffg Hfc HsG Hend (fun _ => Hbe))
      by discriminate.
    cbn [cbind].
    rewrite (groups_end_seg_b be gs vgs b _ fuel Hwg Hfuel HsG),
      (trav_datas_ok lv ds vds _ 0%nat _ _ _ Hwd HsD).
    2:{ intros Hge'. destruct gs; [|discriminate]. rewrite enc_groups_gnil, len_nil. lia. }
    2:{ intros Hge'. now rewrite Hge'. }
    (* events and final position *)
    cbn [ev_level level_fields level_groups level_datas]. rewrite enc_level_eq.
    cbn [level_groups level_datas].
    rewrite !rev_app_distr, <- !app_assoc, !len_app, Hlvl. f_equal.
    destruct ds as [|t ds]; [cbn [enc_datas]; rewrite len_nil|lia].
    destruct gs as [|d cbl l rest]; cbn [groups_empty]; [rewrite enc_groups_gnil, len_nil|lia].
    destruct fs as [|f fs]; [|lia].
    destruct al; [|contradiction]. rewrite Hc. unfold is_empty_level. cbn. lia.
  Qed.

  Lemma T_groups_nil : T_groups VGNil.
  Proof.
    intros gs cgs pos lv k first c acc Hwf Hcg Hff Hfc Hs Hend H1 H2.
    destruct gs; [|contradiction]. reflexivity.
  Qed.

  Lemma T_groups_step bg es vrest :
    T_entries es -> T_groups vrest -> T_groups (VGCons bg es vrest).
  Proof.
    intros IHe IHr gs cgs pos lv k first c acc Hwf Hcg Hff Hfc Hs Hend H1 H2.
    destruct gs as [|d cbl l rest]; [contradiction|].
    destruct cgs as [|cl crest]; [contradiction|].
    destruct Hcg as [Hcl Hcr]. destruct Hff as [Hffe Hffr]. destruct Hfc as (Hcnt & Hfce & Hfcr).
    destruct (groups_cons_image be b d cbl l rest bg es vrest _ Hwf Hs)
      as (Hga & Hwe & Hall & HsE & Hwr & HsR).
    destruct (group_at_inv be b d _ _ Hga) as (Hrbl & Hrn & _). cbn [gv_bl gv_n] in Hrbl, Hrn.
    rewrite trav_groups_cbind, (cur_group_ok WPlain first lv pos (d_size d) _ c H1 (fun H _ => H2 H)), Hrbl, Hrn.
    rewrite (IHe l cl _ _ (lv_end lv) fuel _ Hwe Hcl Hffe Hfce Hall HsE Hend
               (entries_fuel Hwe HsE Hfuel Hcnt)).
    cbn [cbind obind].
    rewrite (group_end_single be b fuel d cbl l rest bg es vrest pos Hwf Hfuel Hs).
    rewrite (IHr rest crest _ lv (S k) false _ _ Hwr Hcr Hffr Hfcr HsR Hend)
      by (discriminate || reflexivity).
    cbn [groups_empty ev_groups].
    rewrite rev_cons_app, rev_app_distr, <- !app_assoc, (len_enc_groups_cons _ _ _ _ _ _ _ _ Hwf).
    f_equal.
    destruct rest as [|d2 cbl2 l2 rest2]; cbn [groups_empty]; [rewrite enc_groups_gnil, len_nil|]; lia.
  Qed.

  Lemma T_entries_nil : T_entries VENil.
  Proof.
    intros l cl pos bl lvend j acc _ _ _ _ _ _ _ _.
    rewrite trav_entries_eq. cbn [ecount Z.leb Z.compare enc_entries ev_entries rev app].
    rewrite len_nil, Z.add_0_r. reflexivity.
  Qed.

  Lemma T_entries_step e r : T_level e -> T_entries r -> T_entries (VECons e r).
  Proof.
    intros IHl IHr l cl pos bl lvend j acc [Hwe Hwr] Hcl [Hffe Hffr] [Hfce Hfcr] [Hbl Hall]
      Hs Hend Hj.
    rewrite enc_entries_cons in Hs. apply seg_app in Hs as [Hse Hsr]. cbn [ecount] in *.
    pose proof (ecount_nonneg r) as Hn0.
    destruct j as [|j]; [lia|].
    rewrite trav_entries_eq. destruct (Z.leb_spec (1 + ecount r) 0) as [Hle|_]; [lia|].
    rewrite (IHl l cl 0 pos _ _ _ Hwe Hcl Hffe Hfce Hse);
      cbn [entry_view lv_level lv_start lv_bl lv_end];
      [|reflexivity|lia|lia|exact Hend|unfold entry_cursor; now rewrite Hbl].
    cbn [cbind]. replace (1 + ecount r - 1) with (ecount r) by lia.
    rewrite (IHr l cl _ bl lvend j _ Hwr Hcl Hffr Hfcr Hall Hsr Hend ltac:(lia)).
    cbn [ev_entries]. rewrite enc_entries_cons, rev_cons_app, rev_app_distr, <- !app_assoc, !len_app.
    f_equal. lia.
  Qed.

  Lemma T_all :
    (forall v, T_level v) /\ (forall vgs, T_groups vgs) /\ (forall es, T_entries es).
  Proof.
    apply vtree_mutind.
    - intros block vgs IH vds. apply T_level_step. exact IH.
    - exact T_groups_nil.
    - intros bg es IHe vrest IHr. apply T_groups_step; assumption.
    - exact T_entries_nil.
    - intros e IHl r IHr. apply T_entries_step; assumption.
  Qed.
End Trav.

Theorem trav_message_enc' : stmt_trav_message_enc'.
Proof.
  unfold stmt_trav_message_enc'. intros be m cl hdrbg v pre post Hwf Hcl Hff Hlt Hfc.
  set (b := pre ++ enc_message be m hdrbg v ++ post) in *.
  unfold trav_message. rewrite (msg_block_length_enc be m hdrbg v b pre post Hwf eq_refl).
  rewrite (proj1 (T_all be b (default_fuel b) (default_fuel_len b) Hlt) v
             (m_level m) cl (m_hdr_size m) _ _ _ [] (msg_wf_level be m hdrbg v Hwf) Hcl Hff Hfc
             (msg_root_seg be m hdrbg v b pre post Hwf eq_refl));
    [|cbn [lv_level lv_start]; first [reflexivity|lia]..].
  rewrite app_nil_r, rev_involutive. f_equal.
  unfold enc_message. rewrite len_app, (len_msg_hdr be m hdrbg v Hwf). lia.
Qed.
Print Assumptions trav_message_enc'.

(* a sufficient condition for [flat_counts_le] that does not mention fuel:
   no non-empty flat group has wire blockLength 0 *)
Fixpoint flat_blocks_pos (l : level) (v : vlevel) {struct v} : Prop :=
  match v with
  | VLevel _ vgs _ => flat_blocks_pos_gs (level_groups l) vgs
  end
with flat_blocks_pos_gs (gs : groups) (vgs : vgroups) {struct vgs} : Prop :=
  match vgs, gs with
  | VGCons _ es vrest, GCons _ _ l rest =>
    (is_flat l = true -> 1 <= first_block_len es 1) /\
    flat_blocks_pos_es l es /\ flat_blocks_pos_gs rest vrest
  | _, _ => True
  end
with flat_blocks_pos_es (l : level) (es : ventries) {struct es} : Prop :=
  match es with
  | VENil => True
  | VECons e r => flat_blocks_pos l e /\ flat_blocks_pos_es l r
  end.

Lemma flat_counts_le_mono N N' : N <= N' ->
  (forall v l, flat_counts_le N l v -> flat_counts_le N' l v) /\
  (forall vgs gs, flat_counts_le_gs N gs vgs -> flat_counts_le_gs N' gs vgs) /\
  (forall es l, flat_counts_le_es N l es -> flat_counts_le_es N' l es).
Proof.
  intros HN. apply vtree_mutind.
  - intros block vgs IH vds l H. cbn [flat_counts_le] in *. apply IH. exact H.
  - intros gs _. destruct gs; exact I.
  - intros bg es IHe vrest IHr gs H. destruct gs as [|d cbl l rest]; [exact I|].
    cbn [flat_counts_le_gs] in *. destruct H as (H1 & H2 & H3).
    split; [intros Hfl; specialize (H1 Hfl); lia|]. split; [apply IHe|apply IHr]; assumption.
  - intros l _. exact I.
  - intros e IHl r IHr l H. cbn [flat_counts_le_es] in *. destruct H as [H1 H2].
    split; [apply IHl|apply IHr]; assumption.
Qed.

(* in an image of at most [N] bytes: a non-empty flat group has blocks of at
   least one byte, so its count is at most the length of its entries *)
Lemma flat_counts_bound be N :
  (forall v l, wf_level be l v -> flat_blocks_pos l v ->
     len (enc_level be l v) <= N -> flat_counts_le N l v) /\
  (forall vgs gs, wf_groups be gs vgs -> flat_blocks_pos_gs gs vgs ->
     len (enc_groups be gs vgs) <= N -> flat_counts_le_gs N gs vgs) /\
  (forall es l, wf_entries be l es -> flat_blocks_pos_es l es ->
     len (enc_entries be l es) <= N -> flat_counts_le_es N l es).
Proof.
  apply vtree_mutind.
  - intros block vgs IH vds l [Hwg _] Hp HN. rewrite enc_level_eq, !len_app in HN.
    apply (IH _ Hwg Hp). pose proof (len_nonneg block).
    pose proof (len_nonneg (enc_datas be (level_datas l) vds)). lia.
  - intros gs _ _ _. destruct gs; exact I.
  - intros bg es IHe vrest IHr [|d cbl l rest] Hwf Hp HN; [contradiction|].
    rewrite (len_enc_groups_cons _ _ _ _ _ _ _ _ Hwf) in HN.
    rewrite wf_groups_cons in Hwf. destruct Hwf as (Hd & _ & _ & _ & _ & Hall & _ & Hwe & Hwr).
    destruct Hp as (Hp1 & Hp2 & Hp3).
    pose proof (wf_dim_size_pos d Hd). pose proof (len_nonneg (enc_entries be l es)).
    pose proof (len_nonneg (enc_groups be rest vrest)).
    split; [|split; [apply IHe|apply IHr]; assumption || lia].
    intros Hfl. specialize (Hp1 Hfl). rewrite (enc_entries_flat_len be l _ es Hfl Hall) in *.
    destruct es as [|e r]; [cbn [ecount]; lia|].
    pose proof (ecount_nonneg (VECons e r)). cbn [first_block_len] in *. nia.
  - intros l _ _ _. exact I.
  - intros e IHl r IHr l [Hwe Hwr] [Hp1 Hp2] HN. rewrite enc_entries_cons, len_app in HN.
    pose proof (len_nonneg (enc_level be l e)). pose proof (len_nonneg (enc_entries be l r)).
    split; [apply IHl|apply IHr]; assumption || lia.
Qed.

(* [stmt_trav_message_enc'] with the fuel-free side condition *)
Definition stmt_trav_message_enc'' : Prop :=
  forall be m cl hdrbg v pre post,
    wf_message be m hdrbg v ->
    wf_clevel (m_hdr_size m) (m_level m) cl ->
    fields_fit (m_level m) v ->
    len (pre ++ enc_message be m hdrbg v ++ post) < 2 ^ 64 ->
    flat_blocks_pos (m_level m) v ->
    trav_message be (pre ++ enc_message be m hdrbg v ++ post) m cl (len pre)
    = COk (ev_level be (m_level m) v (len pre + m_hdr_size m))
          (len pre + len (enc_message be m hdrbg v)).

Theorem trav_message_enc'' : stmt_trav_message_enc''.
Proof.
  unfold stmt_trav_message_enc''. intros be m cl hdrbg v pre post Hwf Hcl Hff Hlt Hpos.
  apply trav_message_enc'; try assumption.
  apply (proj1 (flat_counts_bound be _) v _ (msg_wf_level be m hdrbg v Hwf) Hpos).
  set (b := pre ++ enc_message be m hdrbg v ++ post).
  pose proof (default_fuel_len b).
  pose proof (seg_bounds _ _ _ (msg_root_seg be m hdrbg v b pre post Hwf eq_refl)). lia.
Qed.
Print Assumptions trav_message_enc''.

Lemma cres_map_map {A B C} (f : A -> B) (g : B -> C) (r : cres A) :
  cres_map g (cres_map f r) = cres_map (fun a => g (f a)) r.
Proof. destruct r; reflexivity. Qed.

Lemma cres_map_cbind {A B C} (f : B -> C) (R : cres A) (F : A -> Z -> cres B) :
  cres_map f (cbind R F) = cbind R (fun a c => cres_map f (F a c)).
Proof. destruct R; reflexivity. Qed.

Definition cres_app (r : cres (list event)) (acc : list event) : cres (list event) :=
  cres_map (fun a => a ++ acc) r.

Definition appends (X : list event -> cres (list event)) : Prop :=
  forall acc, X acc = cres_app (X []) acc.

Lemma cres_app_app r x y : cres_app (cres_app r x) y = cres_app r (x ++ y).
Proof. destruct r; cbn [cres_app cres_map]; [|reflexivity|reflexivity]. now rewrite <- app_assoc. Qed.

Lemma appends_push e X : appends X -> appends (fun acc => X (e :: acc)).
Proof. intros H acc. rewrite (H (e :: acc)), (H [e]), cres_app_app. reflexivity. Qed.

Lemma appends_bind X (Y : list event -> Z -> cres (list event)) :
  appends X -> (forall c, appends (fun a => Y a c)) -> appends (fun acc => cbind (X acc) Y).
Proof.
  intros HX HY acc. rewrite (HX acc).
  destruct (X []) as [a1 c1| |]; cbn [cres_app cres_map cbind]; [|reflexivity|reflexivity].
  rewrite (HY c1 (a1 ++ acc)), (HY c1 a1), cres_app_app. reflexivity.
Qed.

Lemma trav_fields_appends v : forall fs k c, appends (trav_fields v fs k c).
Proof.
  induction fs as [|a r IH]; intros k c acc; cbn [trav_fields]; [reflexivity|].
  destruct (cur_field WPlain v a c) as [addr c'| |]; [|reflexivity|reflexivity].
  exact (appends_push _ _ (IH (S k) c') acc).
Qed.

Lemma trav_datas_appends be b v : forall ds k first p c, appends (trav_datas be b v ds k first p c).
Proof.
  induction ds as [|t r IH]; intros k first p c acc; cbn [trav_datas]; [reflexivity|].
  destruct (cur_data WPlain first v p (data_size_at be b t) c) as [s c'| |];
    [|reflexivity|reflexivity].
  destruct (rd be b s t) as [n|]; [|reflexivity].
  exact (appends_push _ _ (IH (S k) false _ c') acc).
Qed.

Lemma trav_entries_appends_of be b fuel l :
  (forall cl v c, appends (trav_level be b fuel l cl v c)) ->
  forall cl bl lvend j n c, appends (trav_entries be b fuel l cl bl lvend j n c).
Proof.
  intros Hl cl bl lvend. induction j as [|j IH]; intros n c acc; rewrite !trav_entries_eq;
    destruct (n <=? 0); try reflexivity.
  exact (appends_bind _ _ (appends_push _ _ (Hl cl _ _)) (fun c' => IH (n - 1) c') acc).
Qed.

Lemma trav_level_appends_of be b fuel fs gs ds :
  (forall cgs v k first p c, appends (trav_groups be b fuel gs cgs v k first p c)) ->
  forall cl v c, appends (trav_level be b fuel (Level fs gs ds) cl v c).
Proof.
  intros Hg cl v c acc. rewrite !trav_level_cbind.
  exact (appends_bind _ _ (trav_fields_appends v _ _ c)
           (fun c1 => appends_bind _ _ (Hg _ v _ _ _ c1)
                        (fun c2 => trav_datas_appends be b v ds _ _ _ c2)) acc).
Qed.

Lemma trav_groups_appends be b fuel :
  forall gs cgs v k first p c, appends (trav_groups be b fuel gs cgs v k first p c).
Proof.
  apply (groups_mind (fun l => forall cl v c, appends (trav_level be b fuel l cl v c))
                     (fun gs => forall cgs v k first p c,
                                  appends (trav_groups be b fuel gs cgs v k first p c))).
  - intros fs gs IHg ds. exact (trav_level_appends_of be b fuel fs gs ds IHg).
  - intros cgs v k first p c acc. reflexivity.
  - intros d cbl l IHl rest IHr [|cl crest] v k first p c acc; [reflexivity|].
    rewrite !trav_groups_cbind.
    destruct (cur_group WPlain first v p (d_size d) (fun _ => None) c) as [s c1| |];
      [|reflexivity|reflexivity].
    destruct (rd be b (s + d_bl_off d) (d_bl_t d)) as [bl|]; [|reflexivity].
    destruct (rd be b (s + d_n_off d) (d_n_t d)) as [n|]; [|reflexivity].
    exact (appends_bind _ _
             (appends_push _ _ (trav_entries_appends_of be b fuel l IHl cl bl _ fuel n c1))
             (fun c' => IHr crest v (S k) false _ c') acc).
Qed.

Lemma trav_level_appends be b fuel l cl v c : appends (trav_level be b fuel l cl v c).
Proof.
  destruct l as [fs gs ds]. apply trav_level_appends_of. apply trav_groups_appends.
Qed.

Lemma trav_entries_appends be b fuel l cl bl lvend j n c :
  appends (trav_entries be b fuel l cl bl lvend j n c).
Proof. apply trav_entries_appends_of. intros cl0 v c0. apply trav_level_appends. Qed.

Lemma ventries_nth_lt : forall es i, Z.of_nat i < ecount es -> exists e, ventries_nth es i = Some e.
Proof.
  induction es as [|e r IH]; intros i Hi; cbn [ecount] in Hi; [lia|].
  destruct i as [|i]; [exists e; reflexivity|]. apply IH. lia.
Qed.

Lemma prefix_len_0 be l es : entries_prefix_len be l es 0 = 0.
Proof. destruct es; reflexivity. Qed.

Lemma prefix_len_S be l : forall es i e, ventries_nth es i = Some e ->
  entries_prefix_len be l es (S i) = entries_prefix_len be l es i + len (enc_level be l e).
Proof.
  induction es as [|e0 r IH]; intros i e Hnth; [discriminate|].
  destruct i as [|i]; cbn [ventries_nth] in Hnth; cbn [entries_prefix_len].
  - injection Hnth as <-. rewrite prefix_len_0. lia.
  - rewrite <- Z.add_assoc, <- (IH i e Hnth). reflexivity.
Qed.

Lemma prefix_len_all be l : forall es i, ecount es <= Z.of_nat i ->
  entries_prefix_len be l es i = len (enc_entries be l es).
Proof.
  induction es as [|e r IH]; intros i Hi; [destruct i; reflexivity|].
  pose proof (ecount_nonneg r). cbn [ecount] in Hi. destruct i as [|i]; [lia|].
  cbn [entries_prefix_len]. rewrite enc_entries_cons, len_app, IH by lia. reflexivity.
Qed.

(* the tables and side conditions of the traversal theorem for the entries of
   the k-th group of a level *)
Lemma level_tables {hdr l v cl k d cbl sub bg es} :
  wf_clevel hdr l cl -> fields_fit l v -> flat_blocks_pos l v ->
  groups_nth (level_groups l) k = Some (d, cbl, sub) ->
  vgroups_nth (vlevel_groups v) k = Some (bg, es) ->
  exists clk, cgroups_nth (clevel_groups cl) k = Some clk /\ wf_clevel 0 sub clk /\
              fields_fit_es sub es /\
              flat_blocks_pos_gs (GCons d cbl sub GNil) (VGCons bg es VGNil).
Proof.
  destruct l as [fs gs ds], cl as [al cgs], v as [block vgs vds]. intros [_ Hc] [_ Hf] Hp.
  cbn [level_groups vlevel_groups clevel_groups flat_blocks_pos] in *.
  revert cgs vgs k Hc Hf Hp.
  induction gs as [|d0 cbl0 l0 rest IH]; intros [|cl0 crest] [|bg0 es0 vrest] k Hc Hf Hp Hg Hv;
    try discriminate; try contradiction.
  destruct Hc as [Hc0 Hcr], Hf as [Hf0 Hfr], Hp as (Hp0 & Hp1 & Hpr).
  destruct k as [|k]; cbn [groups_nth vgroups_nth cgroups_nth] in *.
  - injection Hg as <- <- <-. injection Hv as <- <-. exists cl0.
    cbn [flat_blocks_pos_gs]. repeat split; assumption.
  - exact (IH crest vrest k Hcr Hfr Hpr Hg Hv).
Qed.

Lemma vresolve_props be : forall path l v cl hdr l' v' off,
  vresolve be path l v = Some (l', v', off) ->
  wf_clevel hdr l cl -> fields_fit l v -> flat_blocks_pos l v ->
  exists cl' hdr', clevel_at cl path = Some cl' /\ wf_clevel hdr' l' cl' /\
                   fields_fit l' v' /\ flat_blocks_pos l' v'.
Proof.
  induction path as [|[k i] rest IH]; intros l v cl hdr l' v' off Hres Hcl Hff Hfp.
  - injection Hres as <- <- <-. exists cl, hdr. repeat split; assumption.
  - cbn [vresolve] in Hres.
    destruct (groups_nth (level_groups l) k) as [[[d cbl] sub]|] eqn:Hg; [|discriminate].
    destruct (vgroups_nth (vlevel_groups v) k) as [[bg es]|] eqn:Hvg; [|discriminate].
    destruct (i <? 0); [discriminate|].
    destruct (ventries_nth es (Z.to_nat i)) as [e|] eqn:He; [|discriminate].
    destruct (vresolve be rest sub e) as [[[l'' v''] off']|] eqn:Hsub; [|discriminate].
    injection Hres as <- <- <-.
    destruct (level_tables Hcl Hff Hfp Hg Hvg)
      as (clk & Hck & Hwck & Hffe & _ & Hfpe & _).
    pose proof (ventries_nth_in es _ e He) as Hin.
    destruct (IH sub e clk 0 l'' v'' off' Hsub Hwck
                (ventries_in (fields_fit sub) (fields_fit_es sub) (fun _ _ H => H) es e Hffe Hin)
                (ventries_in (flat_blocks_pos sub) (flat_blocks_pos_es sub) (fun _ _ H => H) es e Hfpe Hin))
      as (cl' & hdr' & H1 & H234).
    exists cl', hdr'. cbn [clevel_at]. rewrite Hck. split; assumption.
Qed.
