(* TraitsProofs.v — proofs about Traits.v (C18, derived traits). *)
From Coq Require Import ZArith List Bool String Lia FinFun.
From Sbepp Require Import ListFacts CInt Bytes Msg Layout Traits.
From Sbepp Require LayoutProofs.
Import ListNotations.
Local Open Scope Z_scope.

(* [Placed ms cur offs e]: starting at [cur], the members [ms] get the offsets
   [offs] (None = constant, takes no space) and end at [e]:
     - a constant member is skipped,
     - a member with an explicit offset sits there, and the offset is not
       below the end of what precedes it,
     - a member without one is packed right after what precedes it. *)
Inductive Placed : list smember -> Z -> list (option Z) -> Z -> Prop :=
| P_nil cur : Placed [] cur [] cur
| P_const o t r cur offs e sz :
    type_size t = Some sz -> Placed r cur offs e ->
    Placed (SMember o true t :: r) cur (None :: offs) e
| P_explicit o t r cur offs e sz :
    type_size t = Some sz -> cur <= o -> Placed r (o + sz) offs e ->
    Placed (SMember (Some o) false t :: r) cur (Some o :: offs) e
| P_packed t r cur offs e sz :
    type_size t = Some sz -> Placed r (cur + sz) offs e ->
    Placed (SMember None false t :: r) cur (Some cur :: offs) e.

Fixpoint size_go (ms : list smember) (cur : Z) : option Z :=
  match ms with
  | [] => Some cur
  | SMember o c t :: rest =>
    match type_size t with
    | None => None
    | Some sz =>
      if c then size_go rest cur
      else match place o cur sz with
           | None => None
           | Some (_, cur') => size_go rest cur'
           end
    end
  end.

(* the fixpoint inside [type_size], so that the lemmas of LayoutProofs about
   [comp_size] speak of [size_go] as they stand *)
Lemma size_go_comp_size : size_go = LayoutProofs.comp_size.
Proof. reflexivity. Qed.

(* [P_explicit] and [P_packed] at once: a member that takes space goes where
   [place] puts it *)
Lemma P_place o t r cur off cur' offs e sz :
  type_size t = Some sz -> place o cur sz = Some (off, cur') -> Placed r cur' offs e ->
  Placed (SMember o false t :: r) cur (Some off :: offs) e.
Proof.
  intros Ht Hp Hr. apply LayoutProofs.place_some in Hp as (-> & Hle & ->).
  destruct o; econstructor; eassumption.
Qed.

Lemma member_offsets_placed ms : forall cur offs,
  member_offsets ms cur = Some offs -> exists e, Placed ms cur offs e /\ size_go ms cur = Some e.
Proof.
  induction ms as [|[o c t] r IH]; intros cur offs H; cbn [member_offsets size_go] in *.
  - injection H as <-. exists cur. split; [constructor|reflexivity].
  - destruct (type_size t) as [sz|] eqn:Et; [|discriminate]. destruct c.
    + destruct (member_offsets r cur) as [offs'|] eqn:Er; [|discriminate]. injection H as <-.
      destruct (IH _ _ Er) as (e & Hp & Hs). exists e. split; [econstructor; eassumption|exact Hs].
    + destruct (place o cur sz) as [[off cur']|] eqn:Ep; [|discriminate].
      destruct (member_offsets r cur') as [offs'|] eqn:Er; [|discriminate]. injection H as <-.
      destruct (IH _ _ Er) as (e & Hp & Hs). exists e. split; [eapply P_place; eassumption|exact Hs].
Qed.

Lemma placed_member_offsets ms cur offs e :
  Placed ms cur offs e -> member_offsets ms cur = Some offs /\ size_go ms cur = Some e.
Proof.
  induction 1 as [cur|o t r cur offs e sz Ht _ [IH1 IH2]|o t r cur offs e sz Ht Hle _ [IH1 IH2]
                 |t r cur offs e sz Ht _ [IH1 IH2]]; cbn [member_offsets size_go].
  - auto.
  - rewrite Ht, IH1, IH2. auto.
  - rewrite Ht. unfold place. replace (o <? cur) with false by (symmetry; apply Z.ltb_ge; exact Hle).
    rewrite IH1, IH2. auto.
  - rewrite Ht. cbn [place]. rewrite IH1, IH2. auto.
Qed.

(* sizes of the members that are given are not negative *)
Definition sizes_nonneg (ms : list smember) : Prop :=
  Forall (fun m => forall sz, type_size (sm_type m) = Some sz -> 0 <= sz) ms.

Lemma placed_nth ms cur offs e : Placed ms cur offs e ->
  forall k m, nth_error ms k = Some m ->
    if sm_const m then nth_error offs k = Some None
    else exists o, nth_error offs k = Some (Some o) /\
                   match sm_off m with Some x => o = x | None => True end.
Proof.
  intros H. destruct (placed_member_offsets _ _ _ _ H) as [Hm Hs].
  exact (LayoutProofs.member_offsets_nth _ _ _ _ Hm Hs).
Qed.

Lemma placed_bounds ms cur offs e : Placed ms cur offs e -> sizes_nonneg ms ->
  cur <= e /\
  forall k o, nth_error offs k = Some (Some o) -> cur <= o /\
    forall m sz, nth_error ms k = Some m -> type_size (sm_type m) = Some sz -> o + sz <= e.
Proof.
  intros H. destruct (placed_member_offsets _ _ _ _ H) as [Hm Hs].
  exact (LayoutProofs.member_offsets_bounds _ _ _ _ Hm Hs).
Qed.

Lemma placed_disjoint ms cur offs e : Placed ms cur offs e -> sizes_nonneg ms ->
  forall i j oi oj mi szi, (i < j)%nat ->
    nth_error offs i = Some (Some oi) -> nth_error offs j = Some (Some oj) ->
    nth_error ms i = Some mi -> type_size (sm_type mi) = Some szi -> oi + szi <= oj.
Proof.
  intros H. destruct (placed_member_offsets _ _ _ _ H) as [Hm Hs].
  exact (LayoutProofs.member_offsets_sep _ _ _ _ Hm Hs).
Qed.

Lemma to_stype_composite n off es :
  to_stype (TyComposite n off es) = TComposite (map to_smember es).
Proof.
  cbn [to_stype]. f_equal. induction es as [|x r IH]; [reflexivity|].
  destruct x; cbn [map to_smember telem_off telem_const telem_stype]; rewrite IH; reflexivity.
Qed.

(* C18: composite_traits<C>::size_bytes() and the offset() trait of every
   element obey the SBE placement rule, elements do not overlap, and the size
   is where the last one ends *)
Theorem composite_traits_ok : forall n off es offs,
  elem_offsets es = Some offs ->
  sizes_nonneg (map to_smember es) ->
  exists size,
    enc_size (TyComposite n off es) = Some size /\
    Placed (map to_smember es) 0 offs size /\
    (forall k x, nth_error es k = Some x ->
       if telem_const x
       then nth_error offs k = Some None
       else exists o, nth_error offs k = Some (Some o) /\ elem_offset_trait x (Some o) = Some o /\
                      0 <= o /\ forall sz, type_size (telem_stype x) = Some sz -> o + sz <= size) /\
    (forall i j xi oi oj szi, (i < j)%nat -> nth_error es i = Some xi ->
       nth_error offs i = Some (Some oi) -> nth_error offs j = Some (Some oj) ->
       type_size (telem_stype xi) = Some szi -> oi + szi <= oj).
Proof.
  intros n off es offs H Hn. destruct (member_offsets_placed _ _ _ H) as (e & Hp & Hs).
  exists e. unfold enc_size. rewrite to_stype_composite, LayoutProofs.type_size_composite, <- size_go_comp_size.
  split; [exact Hs|]. split; [exact Hp|]. split.
  - intros k x Hx. pose proof (map_nth_error to_smember _ _ Hx) as Hm.
    pose proof (placed_nth _ _ _ _ Hp _ _ Hm) as Hk. cbn [to_smember sm_const sm_off] in Hk.
    destruct (telem_const x); [exact Hk|]. destruct Hk as (o & Ho & Hexp).
    destruct (placed_bounds _ _ _ _ Hp Hn) as [_ Hb]. destruct (Hb _ _ Ho) as [Hl Hu].
    exists o. split; [exact Ho|]. split; [|split; [exact Hl|exact (fun sz => Hu _ sz Hm)]].
    destruct x as [nm ro t|x]; cbn [elem_offset_trait]; [reflexivity|].
    cbn [telem_off] in Hexp. destruct (tenc_off x); [subst|]; reflexivity.
  - intros i j xi oi oj szi Hij Hxi Hoi Hoj Hsz.
    exact (placed_disjoint _ _ _ _ Hp Hn i j oi oj _ szi Hij Hoi Hoj (map_nth_error to_smember _ _ Hxi) Hsz).
Qed.

Definition field_smember (f : tfield) : smember :=
  SMember (tf_off f) (is_constant (actual_presence f)) (ftype_stype (tf_type f)).

Definition dflt0 (o : option Z) : Z := match o with Some x => x | None => 0 end.

(* the level layout is the member placement of the fields *)
Lemma layout_fields_placed fs : forall cur fl e,
  layout_fields (map to_sfield fs) cur = Some (fl, e) ->
  exists offs, Placed (map field_smember fs) cur offs e /\ field_offset_traits fs fl = map dflt0 offs.
Proof.
  induction fs as [|f r IH]; intros cur fl e H;
    cbn [map layout_fields field_offset_traits to_sfield sf_type sf_const sf_off] in *.
  - injection H as <- <-. exists []. split; [constructor|reflexivity].
  - unfold field_smember at 1.
    destruct (type_size (ftype_stype (tf_type f))) as [sz|] eqn:Et; [|discriminate].
    destruct (is_constant (actual_presence f)).
    + destruct (IH _ _ _ H) as (offs & Hp & Ho). exists (None :: offs).
      split; [econstructor; eassumption|cbn [map dflt0]; rewrite Ho; reflexivity].
    + destruct (place (tf_off f) cur sz) as [[off cur']|] eqn:Ep; [|discriminate].
      destruct (layout_fields (map to_sfield r) cur') as [[fl' e']|] eqn:Er; [|discriminate].
      injection H as <- <-. destruct (IH _ _ _ Er) as (offs & Hp & Ho). exists (Some off :: offs).
      split; [eapply P_place; eassumption|cbn [map dflt0 f_off]; rewrite Ho; reflexivity].
Qed.

(* C18: field_traits<F>::offset() obeys the SBE placement rule inside the
   block, constants take no space (and report 0), block_length() is the
   blockLength attribute when there is one (never below the end of the last
   field) and the end of the last field otherwise; presence() is the actual
   presence *)
Theorem level_traits_ok : forall bl fs lt,
  level_traits_of bl fs = Some lt ->
  exists offs minimal,
    Placed (map field_smember fs) 0 offs minimal /\
    lt_offsets lt = map dflt0 offs /\
    lt_presence lt = map actual_presence fs /\
    minimal <= lt_block_length lt /\
    match bl with Some x => lt_block_length lt = x | None => lt_block_length lt = minimal end /\
    (forall k f, nth_error fs k = Some f ->
       if is_constant (actual_presence f) then nth_error offs k = Some None
       else exists o, nth_error offs k = Some (Some o) /\
                      match tf_off f with Some x => o = x | None => True end).
Proof.
  intros bl fs lt H. unfold level_traits_of, level_layout in H.
  destruct (layout_fields (map to_sfield fs) 0) as [[fl minimal]|] eqn:El; [|discriminate].
  destruct (block_length bl minimal) as [b|] eqn:Eb; [|discriminate]. injection H as <-.
  destruct (layout_fields_placed _ _ _ _ El) as (offs & Hp & Ho).
  destruct (LayoutProofs.block_length_covers _ _ _ Eb) as (Hmin & Hnone & Hsome).
  exists offs, minimal. cbn [lt_offsets lt_presence lt_block_length].
  split; [exact Hp|]. split; [exact Ho|]. split; [reflexivity|]. split; [exact Hmin|].
  split; [destruct bl; auto|].
  intros k f Hk. exact (placed_nth _ _ _ _ Hp _ _ (map_nth_error field_smember _ _ Hk)).
Qed.

(* C18: the actual presence rule (sbe_schema_validator.hpp, get_actual_presence) *)
Theorem actual_presence_rule : forall f,
  (forall p, tf_type f = FPrim p -> actual_presence f = tf_pres f) /\
  (forall n p pres len off, tf_type f = FEnc (TyType n p pres len off) -> actual_presence f = pres) /\
  (forall n off es, tf_type f = FEnc (TyComposite n off es) -> actual_presence f = tf_pres f) /\
  (forall n p vs off, tf_type f = FEnc (TyEnum n p vs off) ->
     actual_presence f <> POptional /\
     (actual_presence f = PConstant <-> tf_pres f = PConstant)) /\
  (forall n p cs off, tf_type f = FEnc (TySet n p cs off) -> actual_presence f = PRequired).
Proof.
  intros f. unfold actual_presence. repeat split; intros; try (rewrite H; reflexivity).
  - rewrite H. destruct (tf_pres f); discriminate.
  - rewrite H in H0. destruct (tf_pres f); try discriminate; reflexivity.
  - rewrite H, H0. reflexivity.
Qed.

Example level_traits_nonvacuous :
  level_traits_of (Some 20)
    [ {| tf_name := "a"; tf_off := None; tf_pres := POptional; tf_type := FPrim PU32 |};
      {| tf_name := "k"; tf_off := None; tf_pres := PConstant;
         tf_type := FEnc (TyEnum "E" PU8 ["A"%string] None) |};
      {| tf_name := "s"; tf_off := Some 6; tf_pres := POptional;
         tf_type := FEnc (TySet "S" PU16 [] None) |} ]
  = Some {| lt_offsets := [0; 0; 6]; lt_presence := [POptional; PConstant; PRequired];
            lt_block_length := 20 |}.
Proof. vm_compute. reflexivity. Qed.

Example composite_traits_nonvacuous :
  elem_offsets [ElEnc (TyType "a" PU16 PRequired 1 None);
                ElEnc (TyType "k" PU8 PConstant 1 None);
                ElRef "r" (Some 4) (TyType "T" PChar PRequired 3 None);
                ElEnc (TyComposite "in" None [ElEnc (TyType "x" PU64 PRequired 1 None)])]
  = Some [Some 0; None; Some 4; Some 7] /\
  enc_size (TyComposite "C" None
               [ElEnc (TyType "a" PU16 PRequired 1 None);
                ElEnc (TyType "k" PU8 PConstant 1 None);
                ElRef "r" (Some 4) (TyType "T" PChar PRequired 3 None);
                ElEnc (TyComposite "in" None [ElEnc (TyType "x" PU64 PRequired 1 None)])]) = Some 15.
Proof. vm_compute. split; reflexivity. Qed.

(* C18: a children tag list names exactly the children, in schema order, each
   directly below the parent's tag; distinct children have distinct tags *)
Theorem children_tags_ok : forall parent names,
  List.length (child_tags parent names) = List.length names /\
  (forall k n, nth_error names k = Some n -> nth_error (child_tags parent names) k = Some (parent ++ [n])) /\
  map (fun t => last t ""%string) (child_tags parent names) = names /\
  Forall (fun t => removelast t = parent) (child_tags parent names) /\
  (NoDup names -> NoDup (child_tags parent names)).
Proof.
  intros parent names. unfold child_tags. repeat split.
  - apply map_length.
  - intros k n Hk. rewrite nth_error_map, Hk. reflexivity.
  - rewrite map_map. rewrite <- (map_id names) at 2. apply map_ext. intros n. apply last_last.
  - apply Forall_forall. intros t Ht. apply in_map_iff in Ht as (n & <- & _). apply removelast_last.
  - apply FinFun.Injective_map_NoDup. intros a b E. apply (app_inj_tail _ _ _ _ E).
Qed.

Definition telemP (P : tenc -> Prop) (x : telem) : Prop :=
  match x with ElRef _ _ _ => True | ElEnc e => P e end.

Section TencInd.
  Variable P : tenc -> Prop.
  Hypothesis HT : forall n p pr l o, P (TyType n p pr l o).
  Hypothesis HE : forall n p v o, P (TyEnum n p v o).
  Hypothesis HS : forall n p c o, P (TySet n p c o).
  Hypothesis HC : forall n o es, Forall (telemP P) es -> P (TyComposite n o es).
  Fixpoint tenc_ind' (e : tenc) : P e :=
    match e with
    | TyType n p pr l o => HT n p pr l o
    | TyEnum n p v o => HE n p v o
    | TySet n p c o => HS n p c o
    | TyComposite n o es =>
      HC n o es ((fix go (es : list telem) : Forall (telemP P) es :=
                    match es with
                    | [] => @Forall_nil _ (telemP P)
                    | x :: r => @Forall_cons _ (telemP P) x r
                        (match x return telemP P x with
                         | ElRef _ _ _ => I
                         | ElEnc e => tenc_ind' e
                         end) (go r)
                    end) es)
    end.
End TencInd.

Section TgroupInd.
  Variable P : tgroup -> Prop.
  Hypothesis HG : forall n bl fs gs ds, Forall P gs -> P (TGroup n bl fs gs ds).
  Fixpoint tgroup_ind' (g : tgroup) : P g :=
    match g with
    | TGroup n bl fs gs ds =>
      HG n bl fs gs ds ((fix go (gs : list tgroup) : Forall P gs :=
                           match gs with
                           | [] => @Forall_nil _ P
                           | x :: r => @Forall_cons _ P x r (tgroup_ind' x) (go r)
                           end) gs)
    end.
End TgroupInd.

(* The tags form a tree of names.  [t] lies below the child [n] of [p]: *)
Definition below (p : tag) (n : string) (t : tag) : Prop := exists rest, t = p ++ n :: rest.

Lemma below_neq p n t : below p n t -> t <> p.
Proof.
  intros (rest & ->) H. apply (f_equal (@List.length string)) in H.
  rewrite app_length in H. cbn in H. lia.
Qed.

Lemma below_name p n m t : below p n t -> below p m t -> n = m.
Proof.
  intros (r1 & ->) (r2 & H). apply app_inv_head in H. injection H. auto.
Qed.

Lemma below_step p n m t : below (p ++ [n]) m t -> below p n t.
Proof. intros (rest & ->). exists (m :: rest). rewrite <- app_assoc. reflexivity. Qed.

Lemma single_below p n : below p n (p ++ [n]).
Proof. exists []. reflexivity. Qed.

Definition subtree (p : tag) (n : string) (l : list tag) : Prop :=
  NoDup l /\ forall t, In t l -> below p n t.

Lemma subtree_leaf p n : subtree p n [p ++ [n]].
Proof.
  split; [constructor; [intros []|constructor]|]. intros t [<-|[]]. apply single_below.
Qed.

(* The children of a node [me] are the members of [l]: they have distinct
   names and each lists tags of its own subtree.  The lists are then pairwise
   disjoint and do not contain [me], because a tag says which child it lies
   below. *)
Definition subtrees {A} (name : A -> string) (tags : A -> list tag) (me : tag) (l : list A) : Prop :=
  NoDup (map name l) /\ Forall (fun x => subtree me (name x) (tags x)) l.

Section Children.
  Context {A : Type} (name : A -> string) (tags : A -> list tag).

  Lemma in_children me l t : subtrees name tags me l ->
    In t (List.concat (map tags l)) -> exists x, In x l /\ below me (name x) t.
  Proof.
    intros [_ Hl] Ht. apply in_concat in Ht as (ts & Hts & Ht). apply in_map_iff in Hts as (x & <- & Hx).
    exists x. split; [exact Hx|]. rewrite Forall_forall in Hl. apply (Hl x Hx), Ht.
  Qed.

  Lemma children_disjoint me l : subtrees name tags me l -> NoDup (List.concat (map tags l)).
  Proof.
    induction l as [|a l IH]; cbn [map List.concat]; intros [Hn Hl]; [constructor|].
    apply NoDup_cons_iff in Hn as [Ha Hn]. apply Forall_cons_iff in Hl as [[Hnd Hbel] Hl].
    apply NoDup_app'; [exact Hnd|apply IH; split; assumption|]. intros t Ht Hin.
    destruct (in_children me l t (conj Hn Hl) Hin) as (x & Hx & Hxt).
    apply Ha. rewrite (below_name _ _ _ _ (Hbel t Ht) Hxt). apply in_map, Hx.
  Qed.

  Lemma node_nodup me l : subtrees name tags me l -> NoDup (me :: List.concat (map tags l)).
  Proof.
    intros Hl. constructor; [|apply (children_disjoint me), Hl].
    intros Hin. destruct (in_children _ _ _ Hl Hin) as (x & _ & Hx). exact (below_neq _ _ _ Hx eq_refl).
  Qed.

  Lemma subtree_children p n l : subtrees name tags (p ++ [n]) l ->
    subtree p n (List.concat (map tags l)).
  Proof.
    intros Hl. split; [apply (children_disjoint (p ++ [n])), Hl|].
    intros t Ht. destruct (in_children _ _ _ Hl Ht) as (x & _ & Hx). exact (below_step _ _ _ _ Hx).
  Qed.

  Lemma subtree_node p n l : subtrees name tags (p ++ [n]) l ->
    subtree p n ((p ++ [n]) :: List.concat (map tags l)).
  Proof.
    intros Hl. split; [apply node_nodup, Hl|].
    intros t [<-|Ht]; [apply single_below|apply (subtree_children p n l Hl), Ht].
  Qed.
End Children.

Definition leaf (me : tag) (n : string) : string * list tag := (n, [me ++ [n]]).

Lemma leaves_names me ns : map fst (map (leaf me) ns) = ns.
Proof. rewrite map_map. apply map_id. Qed.

Lemma leaves_tags me ns : List.concat (map snd (map (leaf me) ns)) = map (fun n => me ++ [n]) ns.
Proof. induction ns as [|n ns IH]; [reflexivity|]. cbn. now rewrite IH. Qed.

Lemma leaves_subtrees me ns : Forall (fun b => subtree me (fst b) (snd b)) (map (leaf me) ns).
Proof. apply Forall_map, Forall_forall. intros n _. apply subtree_leaf. Qed.

Definition elem_block (me : tag) (x : telem) : string * list tag :=
  match x with
  | ElRef n _ _ => leaf me n
  | ElEnc e => (tenc_name e, map fst (enc_tags me e))
  end.

Definition enc_blocks (me : tag) (e : tenc) : list (string * list tag) :=
  match e with
  | TyType _ _ _ _ _ => []
  | TyEnum _ _ vs _ | TySet _ _ vs _ => map (leaf me) vs
  | TyComposite _ _ es => map (elem_block me) es
  end.

Lemma enc_tags_unfold parent e :
  map fst (enc_tags parent e) =
  (parent ++ [tenc_name e]) :: List.concat (map snd (enc_blocks (parent ++ [tenc_name e]) e)).
Proof.
  destruct e as [n p pr l o|n p vs o|n p cs o|n o es]; cbn [enc_tags map fst tenc_name enc_blocks];
    f_equal; rewrite ?leaves_tags, ?map_map; try reflexivity.
  induction es as [|x r IH]; [reflexivity|].
  destruct x as [m ro t|x]; cbn [map List.concat snd elem_block leaf fst app]; [|rewrite map_app];
    f_equal; exact IH.
Qed.

Lemma enc_wf_composite n o es : enc_wf (TyComposite n o es) ->
  NoDup (map telem_name es) /\ Forall (telemP enc_wf) es.
Proof.
  cbn [enc_wf]. intros [H1 H2]. split; [exact H1|]. clear H1.
  induction es as [|x r IH]; [constructor|]. destruct x as [m ro t|x].
  - constructor; [exact I|apply IH; exact H2].
  - destruct H2 as [Hx Hr]. constructor; [exact Hx|apply IH; exact Hr].
Qed.

Lemma enc_tags_subtree e : enc_wf e ->
  forall parent, subtree parent (tenc_name e) (map fst (enc_tags parent e)).
Proof.
  induction e as [n p pr l o|n p vs o|n p cs o|n o es IH] using tenc_ind'; intros Hwf parent;
    rewrite enc_tags_unfold; apply (subtree_node fst snd); cbn [enc_blocks tenc_name].
  - split; constructor.
  - split; [rewrite leaves_names; exact Hwf|apply leaves_subtrees].
  - split; [rewrite leaves_names; exact Hwf|apply leaves_subtrees].
  - apply enc_wf_composite in Hwf as [Hn Hall]. split.
    + rewrite map_map. erewrite map_ext; [exact Hn|]. intros [m ro t|x]; reflexivity.
    + apply Forall_map. rewrite Forall_forall in *.
      intros [m ro t|x] Hx; [apply subtree_leaf|]. apply (IH _ Hx), (Hall _ Hx).
Qed.

Definition level_blocks (me : tag) (fs : list tfield) (gs : list tgroup) (ds : list string)
  : list (string * list tag) :=
  map (leaf me) (map tf_name fs) ++
  map (fun g => (tgroup_name g, map fst (group_tags me g))) gs ++
  map (leaf me) ds.

Lemma level_blocks_names me fs gs ds :
  map fst (level_blocks me fs gs ds) = level_member_names fs gs ds.
Proof.
  unfold level_blocks, level_member_names. rewrite !map_app, !leaves_names, map_map. reflexivity.
Qed.

Lemma group_tags_unfold parent n bl fs gs ds :
  map fst (group_tags parent (TGroup n bl fs gs ds)) =
  (parent ++ [n]) :: List.concat (map snd (level_blocks (parent ++ [n]) fs gs ds)).
Proof.
  cbn [group_tags map fst]. f_equal.
  unfold level_blocks. rewrite !map_app, !concat_app, !leaves_tags, !map_map. cbn [snd fst].
  f_equal. f_equal.
  induction gs as [|x r IH]; [reflexivity|]. cbn [map List.concat]. rewrite map_app. f_equal. exact IH.
Qed.

Lemma group_wf_iff n bl fs gs ds : group_wf (TGroup n bl fs gs ds) <->
  NoDup (level_member_names fs gs ds) /\ Forall group_wf gs.
Proof.
  cbn [group_wf]. apply and_iff_compat_l.
  induction gs as [|x r IH]; [split; constructor|]. rewrite Forall_cons_iff, <- IH. reflexivity.
Qed.

Lemma group_tags_subtree g : group_wf g ->
  forall parent, subtree parent (tgroup_name g) (map fst (group_tags parent g)).
Proof.
  induction g as [n bl fs gs ds IH] using tgroup_ind'. intros Hwf parent.
  apply group_wf_iff in Hwf as [Hn Hall]. rewrite group_tags_unfold. apply (subtree_node fst snd). split.
  - rewrite level_blocks_names. exact Hn.
  - unfold level_blocks. rewrite !Forall_app, (Forall_map _ _ gs).
    split; [apply leaves_subtrees|split; [|apply leaves_subtrees]].
    rewrite Forall_forall in *. intros g Hg. apply (IH g Hg), (Hall g Hg).
Qed.

(* a message is a group directly below "messages" *)
Definition message_group (m : tmessage) : tgroup :=
  TGroup (tm_name m) (tm_bl m) (tm_fields m) (tm_groups m) (tm_data m).

Lemma message_tags_group m :
  map fst (message_tags m) = map fst (group_tags ["messages"%string] (message_group m)).
Proof. reflexivity. Qed.

Lemma message_tags_subtree m : message_wf m ->
  subtree ["messages"%string] (tm_name m) (map fst (message_tags m)).
Proof.
  intros Hwf. rewrite message_tags_group. apply (group_tags_subtree (message_group m)).
  apply group_wf_iff. exact Hwf.
Qed.

(* the schema: the root [], "types" and "messages" (which have no tag of
   their own) below it, the encodings and messages below those *)
Theorem schema_tags_nodup : forall s, schema_wf s -> NoDup (map fst (schema_tags s)).
Proof.
  intros s (Htn & Htw & Hmn & Hmw). unfold schema_tags. cbn [map fst].
  rewrite map_app, !flat_map_concat_map, !concat_map, !map_map.
  set (T := List.concat _). set (M := List.concat _).
  assert (HT : subtree [] "types" T).
  { apply (subtree_children tenc_name _ [] "types"). split; [exact Htn|].
    apply (Forall_impl _ (fun e He => enc_tags_subtree e He _) Htw). }
  assert (HM : subtree [] "messages" M).
  { apply (subtree_children tm_name _ [] "messages"). split; [exact Hmn|].
    apply (Forall_impl _ message_tags_subtree Hmw). }
  rewrite <- (app_nil_r M). apply (node_nodup fst snd [] [("types"%string, T); ("messages"%string, M)]). split.
  - repeat constructor; cbn; intuition discriminate.
  - constructor; [exact HT|]. constructor; [exact HM|constructor].
Qed.

Lemma tag_eqb_eq a b : tag_eqb a b = true <-> a = b.
Proof.
  unfold tag_eqb. revert b.
  induction a as [|x a IH]; intros [|y b]; cbn; try (split; discriminate); [tauto|].
  rewrite andb_assoc, (andb_comm _ (x =? y)%string), <- andb_assoc, andb_true_iff, IH, String.eqb_eq.
  split; [intros [-> ->]; reflexivity|intros [= -> ->]; auto].
Qed.

Lemma tag_kind_eqb_eq a b : tag_kind_eqb a b = true -> a = b.
Proof. destruct a, b; intros H; try discriminate H; reflexivity. Qed.

(* C18: for a schema that obeys the parser's uniqueness rules every tag has
   exactly one kind: at most one is_<kind>_tag predicate holds for it, and one
   does for every tag of the schema *)
Theorem tag_kind_exclusive : forall s k k' t,
  schema_wf s -> is_kind_tag s k t = true -> is_kind_tag s k' t = true -> k = k'.
Proof.
  intros s k k' t Hwf H1 H2. unfold is_kind_tag in *. rewrite existsb_exists in H1, H2.
  destruct H1 as ([t1 k1] & Hin1 & E1), H2 as ([t2 k2] & Hin2 & E2). cbn [fst snd] in *.
  apply andb_true_iff in E1 as [Ea Eb], E2 as [Ec Ed].
  apply tag_eqb_eq in Ea, Ec. apply tag_kind_eqb_eq in Eb, Ed. subst.
  exact (f_equal snd (NoDup_map_unique fst _ _ _ (schema_tags_nodup s Hwf) Hin1 Hin2 eq_refl)).
Qed.

Theorem tag_kind_total : forall s t k, In (t, k) (schema_tags s) -> is_kind_tag s k t = true.
Proof.
  intros s t k H. unfold is_kind_tag. rewrite existsb_exists. exists (t, k). split; [exact H|].
  cbn [fst snd]. rewrite (proj2 (tag_eqb_eq t t) eq_refl). destruct k; reflexivity.
Qed.

Example tag_kind_nonvacuous :
  let s := {| ts_types := [TyEnum "E" PU8 ["A"%string] None;
                           TyComposite "A" None [ElRef "E" None (TyEnum "E" PU8 ["A"%string] None);
                                                 ElEnc (TySet "A" PU8 ["E"%string] None)]];
              ts_messages := [{| tm_name := "E"; tm_bl := None;
                                 tm_fields := [{| tf_name := "A"; tf_off := None; tf_pres := PRequired; tf_type := FPrim PU8 |}];
                                 tm_groups := [TGroup "E" None [] [] ["A"%string]]; tm_data := ["d"%string] |}] |} in
  is_kind_tag s KEnumValue ["types"; "E"; "A"]%string = true /\
  is_kind_tag s KSet ["types"; "A"; "A"]%string = true /\
  is_kind_tag s KEnum ["types"; "A"; "E"]%string = true /\
  is_kind_tag s KField ["messages"; "E"; "A"]%string = true /\
  is_kind_tag s KData ["messages"; "E"; "E"; "A"]%string = true /\
  is_kind_tag s KGroup ["messages"; "E"; "A"]%string = false.
Proof. vm_compute. repeat split. Qed.
